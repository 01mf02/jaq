(** C14 - Every supported data format round-trips values on its documented domain.
    Models: Fmts/Yaml.v (the YAML writer of jaq-fmts/src/write/yaml.rs with [must_quote] and block/flow styles, and the
    reader's resolution of untagged plain scalars of jaq-fmts/src/read/yaml.rs), Fmts/Tabular.v (CSV/TSV writer and the
    reader's state machine), Fmts/Cbor.v (writer and reader of jaq-fmts/src/{write,read}/cbor.rs with the header layer of
    ciborium-ll).  The YAML scanner, TOML and XML tokenizers are third-party: those formats are decided by round trips on the
    implementation and independent readers (checks/c14.py), not by these theorems. *)
From Coq Require Import List ZArith.
From JaqV Require Import Base.Bytes Base.F64 Val.Num Val.Val Fmts.Yaml Fmts.Tabular Proofs.YamlLaws Proofs.TabularLaws Fmts.Cbor Proofs.CborFloat Proofs.CborLaws.
Import ListNotations.
Local Open Scope Z_scope.

(** YAML: a string that is written without quotes is read back as that very string - whatever it looks like *)
Theorem yaml_plain_is_string : forall s, must_quote s = false -> resolve s = TStr s.
Proof. exact YamlLaws.plain_is_string. Qed.
Print Assumptions yaml_plain_is_string.

(** ... it is one plain scalar for the scanner (grammar of plain scalars, no document marker, no blank at an end) *)
Theorem yaml_plain_is_document : forall s, must_quote s = false -> plain_document s = true.
Proof. exact YamlLaws.plain_is_document. Qed.
Print Assumptions yaml_plain_is_document.

(** ... and inside collections it cannot be taken for structure: no line break, no flow indicator, no blank at an end, no
    key separator, no comment *)
Theorem yaml_plain_no_structure : forall s, must_quote s = false ->
  Forall (fun c => b_char c = false /\ c_flow_indicator c = false) s
  /\ match s with c :: _ => s_white c = false | [] => False end
  /\ trailing_space s = false.
Proof. exact YamlLaws.plain_no_structure. Qed.
Print Assumptions yaml_plain_no_structure.

Theorem yaml_plain_no_key_separator : forall s pre post, must_quote s = false -> s = pre ++ colon :: post ->
  opt_is ns_plain_safe (hd_error post) = true.
Proof. exact YamlLaws.plain_no_key_separator. Qed.
Print Assumptions yaml_plain_no_key_separator.

Theorem yaml_plain_no_comment : forall s pre post, must_quote s = false -> s = pre ++ hash :: post ->
  exists c pre', pre = c :: pre' /\ ns_char (last pre' c) = true.
Proof. exact YamlLaws.plain_no_comment. Qed.
Print Assumptions yaml_plain_no_comment.

(** null, booleans and the special floats are written as what is read back as them *)
Theorem yaml_scalars_resolve :
  resolve (to_yaml Null) = Null /\ resolve (to_yaml (Bool true)) = Bool true /\ resolve (to_yaml (Bool false)) = Bool false
  /\ resolve (to_yaml (Num (Flt pos_inf))) = Num (Flt pos_inf) /\ resolve (to_yaml (Num (Flt neg_inf))) = Num (Flt neg_inf)
  /\ resolve (to_yaml (Num (Flt nan_bits))) = Num (Flt nan_bits).
Proof. exact YamlLaws.scalars_resolve. Qed.
Print Assumptions yaml_scalars_resolve.

(** CSV: every document of rows of scalars (any byte strings; numbers whose text parses back to them) is read back as
    written; [[]] is not a row ([row_ok]) *)
Theorem csv_roundtrip : forall rows texts,
  Forall row_ok rows -> Forall2 (fun vs t => write_csv (Arr vs) = Some t) rows texts ->
  read_csv (flat_map (fun t => t ++ [lf]) texts) = map Arr rows.
Proof. exact TabularLaws.csv_roundtrip. Qed.
Print Assumptions csv_roundtrip.

(** one row as the filters write it (no final line feed): [[null]] is the excepted row *)
Theorem csv_row_roundtrip : forall vs t,
  row_ok vs -> vs <> [Null] -> write_csv (Arr vs) = Some t -> read_csv t = [Arr vs].
Proof. exact TabularLaws.csv_row_roundtrip. Qed.
Print Assumptions csv_row_roundtrip.

(** TSV: every field comes back byte for byte, for all byte strings; it is a string again on the documented domain *)
Theorem tsv_roundtrip_bytes : forall rows, Forall (fun r => r <> []) rows ->
  read_tsv (flat_map (fun r => join_fields tab (map tsv_str r) ++ [lf]) rows) = map (fun r => Arr (map tsv_field_val r)) rows.
Proof. exact TabularLaws.tsv_roundtrip_bytes. Qed.
Print Assumptions tsv_roundtrip_bytes.

Theorem tsv_roundtrip : forall rows texts,
  Forall (fun r => r <> [] /\ Forall tsv_dom r) rows ->
  Forall2 (fun r t => write_tsv (Arr (map TStr r)) = Some t) rows texts ->
  read_tsv (flat_map (fun t => t ++ [lf]) texts) = map (fun r => Arr (map TStr r)) rows.
Proof. exact TabularLaws.tsv_roundtrip. Qed.
Print Assumptions tsv_roundtrip.

(** a written TSV field has no raw separator, line break or NUL: well-formed for any reader of the format *)
Theorem tsv_field_wellformed : forall s c, In c (tsv_str s) -> bz c <> 9 /\ bz c <> 10 /\ bz c <> 13 /\ bz c <> 0.
Proof. exact TabularLaws.tsv_str_no_sep. Qed.
Print Assumptions tsv_field_wellformed.

(** YAML: integers of any size are written in decimal and read back as the same integer (the most negative machine
    integer as the equal big integer) *)
Theorem yaml_integer_roundtrip : forall z,
  resolve (to_yaml (Num (int_or_big z))) = Num (if (0 <=? z)%Z then int_or_big z else Num.neg (int_or_big (- z))).
Proof. exact YamlLaws.yaml_integer_roundtrip. Qed.
Print Assumptions yaml_integer_roundtrip.

(** CBOR: reading what the writer wrote yields the value, whatever follows it in the input - for every value built from
    null, booleans, machine integers, big integers of any size, floats (every binary64 pattern, in the shortest width that
    holds it), byte strings, valid UTF-8 text strings, arrays and objects with any such values as keys ([cb]; sizes below
    2^64 as every length in a 64-bit process is); invalid UTF-8 (a documented exception) stays with the correspondence *)
Theorem cbor_value_roundtrip : forall v rest, CborLaws.cb v -> parse_one (encode v ++ rest) = DOk v rest.
Proof. exact CborLaws.cbor_roundtrip. Qed.
Print Assumptions cbor_value_roundtrip.

(** ... and a sequence of written values is read back as that sequence, ended by the end of the input *)
Theorem cbor_sequence_roundtrip : forall vs, Forall CborLaws.cb vs -> decode_many (flat_map encode vs) = (vs, MEnd).
Proof. exact CborLaws.cbor_many_roundtrip. Qed.
Print Assumptions cbor_sequence_roundtrip.

(** the headers: every argument below 2^64 is written in the shortest width and read back with its major type *)
Theorem cbor_header_roundtrip : forall major arg rest, 0 <= major < 8 -> 0 <= arg < 18446744073709551616 ->
  exists w, title (head major arg ++ rest) = DOk (major, Some arg, w) rest.
Proof. intros major arg rest Hm Ha. eexists. exact (CborLaws.title_head major arg rest Hm Ha). Qed.
Print Assumptions cbor_header_roundtrip.

(** big integers: the shortest big-endian magnitude is read back as the number *)
Theorem cbor_magnitude_roundtrip : forall z, 0 <= z -> be_val (to_bytes_be z) = z.
Proof. exact CborLaws.to_bytes_be_val. Qed.
Print Assumptions cbor_magnitude_roundtrip.

(** floats: the shortest of binary16 / binary32 that holds a number exactly is read back as the same binary64 pattern *)
Theorem cbor_short_floats_are_exact : forall b h, 0 <= b < two64 ->
  (short_float 15 10 b = Some h -> 0 <= h < 65536 /\ long_float 15 10 h = Some b) /\
  (short_float 127 23 b = Some h -> 0 <= h < 4294967296 /\ long_float 127 23 h = Some b).
Proof. exact CborFloat.short_floats_exact. Qed.
Print Assumptions cbor_short_floats_are_exact.

(** decimal literals: read back as the float they denote (the spelling is the documented exception) *)
Theorem cbor_decimal_literal : forall s rest, 0 <= dec_to_f64 s < two64 ->
  parse_one (encode (Num (Dec s)) ++ rest) = DOk (Num (Flt (dec_to_f64 s))) rest.
Proof. exact CborLaws.cbor_decimal. Qed.
Print Assumptions cbor_decimal_literal.

(** an array that another encoder wrote with indefinite length (0x9f, the items, the break byte) is read as the same array *)
Theorem cbor_indefinite_array : forall a rest, Forall CborLaws.cb a ->
  parse_one (zb 159 :: flat_map encode a ++ zb 255 :: rest) = DOk (Arr a) rest.
Proof. exact CborLaws.indefinite_array. Qed.
Print Assumptions cbor_indefinite_array.
