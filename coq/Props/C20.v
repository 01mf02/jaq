(** C20 - Date and time filters agree with the Gregorian calendar and invert each other.
    Model: Std/Time.v (mirrors jaq-std/src/time.rs for integer epochs in UTC; jiff's civil arithmetic by the
    era-based day-count algorithms). *)
From Coq Require Import ZArith List.
From JaqV Require Import Std.Time Proofs.TimeLaws Proofs.TimeRoundtrip.
Local Open Scope Z_scope.

(** every day number, over all of Z, maps to a calendar date and back *)
Theorem civil_days_bijection : forall z, let '(y, m, d) := civil_from_days z in days_from_civil y m d = z.
Proof. exact days_civil_roundtrip. Qed.
Print Assumptions civil_days_bijection.

Theorem civil_date_well_formed : forall z, let '(y, m, d) := civil_from_days z in 1 <= m <= 12 /\ 1 <= d <= 31.
Proof. exact civil_in_range. Qed.
Print Assumptions civil_date_well_formed.

(** agreement with an independently written calendar (leap rule, month lengths, day count by years) on every valid date of
    a full 400-year era; the table is an instance of [TimeLaws.days_from_civil_is_day_number], which holds for every year *)
Theorem gmtime_is_gregorian_era : forallb date_check (zrange_z 0 400) = true.
Proof. exact dates_all. Qed.
Print Assumptions gmtime_is_gregorian_era.

Theorem calendar_period : forall y m d, days_from_civil (y + 400) m d = days_from_civil y m d + 146097.
Proof. exact days_from_civil_period. Qed.
Print Assumptions calendar_period.

(** never wrapped or clamped: an epoch whose microsecond count leaves i64 or jiff's range is rejected *)
Theorem out_of_range_rejected : forall t, (t * 1000000 < ts_min_us \/ ts_max_us < t * 1000000) ->
  gmtime_int t = TRange \/ gmtime_int t = TConvert.
Proof.
  intros t H. unfold gmtime_int. destruct (epoch_us t) eqn:E; auto.
  apply TimeRoundtrip.epoch_in_range in E. exfalso. destruct H as [H|H].
  - exact (Z.lt_irrefl _ (Z.lt_le_trans _ _ _ H (proj1 E))).
  - exact (Z.lt_irrefl _ (Z.le_lt_trans _ _ _ (proj2 E) H)).
Qed.
Print Assumptions out_of_range_rejected.

(** the date of every day number is a valid date of the calendar (leap years included) *)
Theorem civil_date_valid : forall z, let '(y, m, d) := civil_from_days z in valid_date y m d = true.
Proof. exact civil_valid. Qed.
Print Assumptions civil_date_valid.

(** gmtime | mktime is the identity on every whole number of seconds that gmtime accepts *)
Theorem mktime_of_gmtime : forall t y m0 d h mi s rest,
  gmtime_int t = TOk (y :: m0 :: d :: h :: mi :: s :: rest) -> mktime_int y m0 d h mi s = TOk t.
Proof. exact TimeRoundtrip.mktime_of_gmtime. Qed.
Print Assumptions mktime_of_gmtime.

Example gmtime_example : gmtime_int 951782400 = TOk (2000 :: 1 :: 29 :: 0 :: 0 :: 0 :: 2 :: 59 :: nil).
Proof. reflexivity. Qed.
