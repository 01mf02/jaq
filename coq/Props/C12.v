(** C12 - Collection built-ins obey the invariants and equations the manual states.
    Model: Val/Val.v [sort_by] (stable insertion sort = the contract of Rust's stable sorts), Std/Natives.v. *)
From Coq Require Import List ZArith Sorting.Permutation.
From JaqV Require Import Base.Stream Val.Num Val.Val Std.Natives Proofs.SortLaws Proofs.ValOrder Proofs.GroupLaws Proofs.SearchLaws Proofs.SearchText Proofs.TrimLaws Proofs.UniqueLaws Val.Arith Val.Index Val.Err.
Import ListNotations.

(** sorting returns a permutation of its input, whatever the comparison *)
Theorem sort_is_permutation : forall A (c : A -> A -> comparison) l, Permutation l (sort_by c l).
Proof. exact @ValOrder.sort_by_perm. Qed.
Print Assumptions sort_is_permutation.

(** sorting keeps the number of elements *)
Theorem sort_length : forall A (c : A -> A -> comparison) l, length (sort_by c l) = length l.
Proof. intros. symmetry. apply Permutation_length. apply sort_is_permutation. Qed.
Print Assumptions sort_length.

(** for every comparison that is a total preorder the result is sorted ... *)
Theorem sort_sorted : forall A (c : A -> A -> comparison), SortLaws.total_preorder A c ->
  forall l, Sorted.StronglySorted (SortLaws.le A c) (sort_by c l).
Proof. exact SortLaws.sort_sorted. Qed.
Print Assumptions sort_sorted.

(** ... and stable: the elements of one equivalence class come out in the order they came in *)
Theorem sort_stable : forall A (c : A -> A -> comparison), SortLaws.total_preorder A c ->
  (forall a b, c a b = Eq -> forall z, c z a = c z b) -> (forall a b, c a b = Eq -> c b a = Eq) ->
  forall x l, filter (SortLaws.same A c x) (sort_by c l) = filter (SortLaws.same A c x) l.
Proof. intros A c _. exact (SortLaws.sort_stable A c). Qed.
Print Assumptions sort_stable.

(** [sort] on an array of integers of any size is the numeric sort *)
Theorem sort_integer_array : forall l,
  sort_by val_cmp (map vint l) = map vint (sort_by Z.compare l)
  /\ Sorted.StronglySorted (fun a b => (a <= b)%Z) (sort_by Z.compare l).
Proof. exact SortLaws.sort_integer_array. Qed.
Print Assumptions sort_integer_array.

(** ** group_by, sort_by, min_by, max_by of the model (Std/Natives.v) *)
(** [keyed f xs = (kx, FEnd)]: the key filter produced its keys for every element (kx pairs each element with its keys, in
    order).  group_by returns the groups of the sorted keyed list: concatenated they are the sorted list - what sort_by returns -,
    and they are its maximal runs of equal keys ([maximal]: within a group every further element has the key of the first,
    the next group starts with a different key; no group is empty). *)
Theorem group_by_partitions_sorted_input : forall f xs kx, keyed f xs = (kx, FEnd) ->
  let sorted := sort_by (fun a b => keys_cmp (fst a) (fst b)) kx in
  exists groups, group_by_f f xs = sone (Arr (map (fun g => Arr (map snd g)) groups))
    /\ concat groups = sorted
    /\ (sorted <> [] -> maximal groups)
    /\ (sorted = [] -> groups = []).
Proof. exact GroupLaws.group_by_spec. Qed.
Print Assumptions group_by_partitions_sorted_input.

Theorem sort_by_sorts_the_keyed_list : forall f xs kx, keyed f xs = (kx, FEnd) -> (2 <= length xs)%nat ->
  sort_by_f f xs = sone (Arr (map snd (sort_by (fun a b => keys_cmp (fst a) (fst b)) kx))).
Proof. exact GroupLaws.sort_by_spec. Qed.
Print Assumptions sort_by_sorts_the_keyed_list.

Theorem keyed_pairs_the_elements : forall f xs kx, keyed f xs = (kx, FEnd) -> map snd kx = xs.
Proof. exact GroupLaws.keyed_elements. Qed.
Print Assumptions keyed_pairs_the_elements.

(** min_by / max_by return an element of the input whose keys are extremal in the order of keys, for every class of numbers
    on which the order of numbers is a total preorder (ValOrder); nothing on empty input (the definitions in defs.jq turn that
    into null) *)
Theorem extrema_are_extremal : forall N, tpo num_cmp N -> forall is_max f xs kx,
  keyed f xs = (kx, FEnd) -> Forall (keys_ok N) kx ->
  match kx with
  | [] => extremal_by is_max f xs = SNil
  | _ => exists kv, In kv kx /\ extremal_by is_max f xs = sone (snd kv) /\ Forall (le_dir is_max kv) kx
  end.
Proof. exact GroupLaws.extremal_by_spec. Qed.
Print Assumptions extrema_are_extremal.

(** ** `indices($x)` lists exactly the positions i with `.[i:][:$x|length] == $x` (Proofs/SearchLaws.v)
    For an array searched for a non-empty sub-array and a byte string searched for a non-empty byte string the result is the
    increasing list of exactly those positions k at which the window of the needle's length exists and equals the needle
    ([firstn n (skipn k x)] is what `.[k:][:n]` reads, C10); overlapping occurrences are all listed; an empty needle yields
    nothing; an array searched for a non-array lists the positions of the elements equal to it. *)
Theorem indices_lists_exactly_the_matching_windows : forall x y, y <> [] ->
  exists ps, indices (Arr x) (Arr y) = Ok (Arr (map vint ps)) /\ SearchLaws.lists_exactly Index.list_eqb_val x y ps.
Proof. exact SearchLaws.indices_arrays_spec. Qed.
Print Assumptions indices_lists_exactly_the_matching_windows.

Theorem indices_of_byte_strings : forall x y : Bytes.bytes, y <> [] ->
  exists ps, indices (BStr x) (BStr y) = Ok (Arr (map vint ps)) /\ SearchLaws.lists_exactly Bytes.bytes_eqb x y ps.
Proof. exact SearchLaws.indices_bytes_spec. Qed.
Print Assumptions indices_of_byte_strings.

Theorem indices_of_an_empty_needle : forall x b,
  indices (Arr x) (Arr []) = Ok (Arr []) /\ indices (BStr b) (BStr []) = Ok (Arr []) /\ indices (TStr b) (TStr []) = Ok (Arr []).
Proof. exact SearchLaws.indices_empty_needle. Qed.
Print Assumptions indices_of_an_empty_needle.

Theorem indices_of_an_element : forall a y, (forall l, y <> Arr l) ->
  indices (Arr a) y = Ok (Arr (map vint (map (fun k => Z.of_nat k)
     (filter (fun k => match nth_error a k with Some e => val_eqb e y | None => false end) (seq 0 (length a)))))).
Proof. exact SearchLaws.indices_element. Qed.
Print Assumptions indices_of_an_element.

(** `indices` on text strings counts characters (Proofs/SearchText.v): the k-th character position - k counts the entries of
    [char_starts], the byte offsets that `.[k:]` uses (C10, C13) - is listed exactly when the needle's bytes stand at that offset;
    increasing, each once, overlapping occurrences included, whatever bytes (invalid UTF-8 too) the strings hold *)
Theorem indices_of_text_count_characters : forall x y, y <> [] ->
  indices (TStr x) (TStr y)
  = Ok (Arr (map vint (map Z.of_nat (filter (fun k => SearchText.hit x y (nth k (char_starts x) 0%Z)) (seq 0 (length (char_starts x))))))).
Proof. exact SearchText.indices_text. Qed.
Print Assumptions indices_of_text_count_characters.

(** sorting a sorted array changes nothing: `sort | sort` = `sort` for every total preorder *)
Theorem sort_is_idempotent : forall A (c : A -> A -> comparison), SortLaws.total_preorder A c ->
  forall l, sort_by c (sort_by c l) = sort_by c l.
Proof. exact @SortLaws.sort_idempotent. Qed.
Print Assumptions sort_is_idempotent.

(** startswith / endswith test for a prefix / suffix, on every byte string (Proofs/TrimLaws.v; Std/Natives.v uses [is_prefix] and
    [is_suffix] for them) ... *)
Theorem startswith_is_prefix : forall p x : Bytes.bytes, is_prefix p x = true <-> exists t, x = p ++ t.
Proof. exact TrimLaws.is_prefix_spec. Qed.
Print Assumptions startswith_is_prefix.

Theorem endswith_is_suffix : forall p x : Bytes.bytes, is_suffix p x = true <-> exists t, x = t ++ p.
Proof. exact TrimLaws.is_suffix_spec. Qed.
Print Assumptions endswith_is_suffix.

(** ... and ltrimstr / rtrimstr remove exactly that prefix / suffix: what remains is the rest, and putting the prefix (suffix)
    back gives the string (`ltrimstr($p) | $p + .` = `.` whenever `startswith($p)`) *)
Theorem ltrimstr_removes_the_prefix : forall p x t : Bytes.bytes,
  (is_prefix p x = true -> p ++ skipn (length p) x = x) /\ skipn (length p) (p ++ t) = t.
Proof. intros p x t. split; [apply TrimLaws.ltrim_restores|apply TrimLaws.ltrim_is_the_rest]. Qed.
Print Assumptions ltrimstr_removes_the_prefix.

Theorem rtrimstr_removes_the_suffix : forall p x t : Bytes.bytes,
  (is_suffix p x = true -> firstn (length x - length p) x ++ p = x) /\ firstn (length (t ++ p) - length p) (t ++ p) = t.
Proof. intros p x t. split; [apply TrimLaws.rtrim_restores|apply TrimLaws.rtrim_is_the_rest]. Qed.
Print Assumptions rtrimstr_removes_the_suffix.

(** `unique_by(f)` = `[group_by(f)[] | .[0]]` (its definition in defs.jq) keeps the first of each run: the first elements of the
    groups are exactly the elements of the stably sorted keyed list at which a new key starts (Proofs/UniqueLaws.v) *)
Theorem unique_by_keeps_the_first_of_each_run : forall f xs kx, keyed f xs = (kx, FEnd) ->
  let sorted := sort_by (fun a b => keys_cmp (fst a) (fst b)) kx in
  exists groups, group_by_f f xs = sone (Arr (map (fun g => Arr (map snd g)) groups))
    /\ map snd (flat_map UniqueLaws.head_of groups) = map snd (UniqueLaws.firsts None sorted).
Proof. exact UniqueLaws.unique_by_keeps_the_first_of_each_run. Qed.
Print Assumptions unique_by_keeps_the_first_of_each_run.
