(** C19 - A compiled filter is immutable shared data: concurrent runs equal isolated runs.
    Model: threads as executions in progress over lazy streams (Base/Stream.v) that share only an immutable value - the
    compiled filter, i.e. the function that gives every thread the stream of its own input.  Whatever the scheduler does,
    every thread ends with what it yields alone.  That the Rust filter is such a value (no interior mutability behind its
    Send + Sync, no global state) is the static fact asserted at compile time by the harness, the source audit and the
    observation of concurrent runs (checks/c19.py), not a theorem. *)
From Coq Require Import List.
From JaqV Require Import Base.Stream Val.Val Core.Eval Proofs.ThreadLaws.
Import ListNotations.

Theorem schedule_independent : forall A (sched : list nat) (ts : list (thr A)),
  map (result A) (fold_left (step A) sched ts) = map (result A) ts.
Proof. exact ThreadLaws.schedule_independent. Qed.
Print Assumptions schedule_independent.

Theorem concurrent_is_isolated : forall A (f : nat -> str A) n sched,
  map (result A) (fold_left (step A) sched (start A f n)) = map (fun i => collect (f i)) (seq 0 n).
Proof. exact ThreadLaws.concurrent_is_isolated. Qed.
Print Assumptions concurrent_is_isolated.

(** instantiated with the interpreter: T threads run the same compiled program, each on its own input *)
Theorem concurrent_runs_of_a_program : forall fuel p globals (inputs : nat -> val) n sched,
  map (result val) (fold_left (step val) sched (start val (fun i => run_main fuel p globals (inputs i)) n))
  = map (fun i => collect (run_main fuel p globals (inputs i))) (seq 0 n).
Proof. intros. apply ThreadLaws.concurrent_is_isolated. Qed.
Print Assumptions concurrent_runs_of_a_program.
