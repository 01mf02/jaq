(** C05 - No filter text, argument value or input document can crash jaq.
    A Gallina model is total and cannot exhibit a panic; what it carries are the guards that stand between boundary values
    and a crash, as the implementation has them (the correspondence of the other properties ties the model's operations to
    the code; in a debug build an overflow, an index out of bounds or a slice off a boundary is a panic, i.e. a
    disagreement).  The search for a panic itself (checks/c05.py) is a test, not a theorem. *)
From Coq Require Import List ZArith.
From JaqV Require Import Val.Num Val.Utf8 Val.Index Proofs.SafeLaws.
Import ListNotations.
Local Open Scope Z_scope.

(** machine integers never overflow: every arithmetic result that is a machine integer lies in the range of [isize];
    out of it, the result is a big integer *)
Theorem arithmetic_stays_in_range : forall x y,
  int_ok (add x y) /\ int_ok (sub x y) /\ int_ok (mul x y) /\ int_ok (neg x)
  /\ (int_ok x -> int_ok y -> int_ok (rem x y))
  /\ (forall n, length_num x = Some n -> int_ok n).
Proof.
  intros x y. repeat split; [apply add_ok | apply sub_ok | apply mul_ok | apply neg_ok | apply rem_ok | apply length_num_ok].
Qed.
Print Assumptions arithmetic_stays_in_range.

(** an index that is accepted lies inside the sequence *)
Theorem index_inside : forall p len i, abs_index p len = Some i -> 0 <= len -> 0 <= snd p -> 0 <= i < len.
Proof. exact SafeLaws.abs_index_inside. Qed.
Print Assumptions index_inside.

(** the byte offset computed for a character position is the start of a character (or invalid sequence) or the end of
    the string, and lies inside the string: a string is never cut off a boundary *)
Theorem string_position_on_boundary : forall b p,
  boundary b (byte_index b p) /\ 0 <= byte_index b p <= Z.of_nat (length b).
Proof. exact SafeLaws.byte_index_boundary. Qed.
Print Assumptions string_position_on_boundary.

Theorem string_slice_inside : forall r b,
  let '(s, t) := skip_take_chars r b in 0 <= s /\ 0 <= t /\ s <= Z.of_nat (length b) /\ (t = 0 \/ s + t <= Z.of_nat (length b)).
Proof. exact SafeLaws.skip_take_chars_inside. Qed.
Print Assumptions string_slice_inside.

(** the chunks (characters and invalid sequences) partition every byte string: nothing is lost or read twice *)
Theorem chunks_partition : forall s, concat (map snd (chunks s)) = s.
Proof. exact SafeLaws.chunks_partition. Qed.
Print Assumptions chunks_partition.
