(** C13 - String codecs invert exactly; positions count characters; escaping is safe.
    (Codecs, CSV/TSV fields, explode/implode, split/join and the ASCII case maps; character positions of `indices` are under C12.)
    Model: Std/Codec.v (mirrors the format filters of jaq-std/src/lib.rs; urlencoding, base64 and aho-corasick
    replacement by their contracts), with a POSIX single-quote lexer as the reference consumer of @sh. *)
From Coq Require Import List ZArith.
From JaqV Require Import Base.Bytes Std.Codec Proofs.CodecLaws Proofs.Base64Strict Val.Utf8 Val.Err Val.Arith Std.Natives Proofs.StringLaws Proofs.TabularLaws.
Import ListNotations.

(** @uri | @urid : every byte string (any bytes, also invalid UTF-8) is returned unchanged *)
Theorem uri_roundtrip : forall s, uri_decode (length (uri_encode s)) (uri_encode s) = s.
Proof. exact CodecLaws.uri_roundtrip. Qed.
Print Assumptions uri_roundtrip.

(** @html | @htmld *)
Theorem html_roundtrip : forall s, html_unescape (length (html_escape s)) (html_escape s) = s.
Proof. exact CodecLaws.html_roundtrip. Qed.
Print Assumptions html_roundtrip.

(** @base64 | @base64d, with strict (rejecting) decoding *)
Theorem base64_roundtrip : forall n s, (length s <= n)%nat -> b64_decode (S n) (b64_encode s) = Some s.
Proof. exact CodecLaws.base64_roundtrip. Qed.
Print Assumptions base64_roundtrip.

(** @sh is safe: a POSIX shell reading the quoted word recovers exactly the original bytes and nothing is left over *)
Theorem sh_safe : forall s, sh_word (4 * length s + 4) false (sh_quote s) [] = Some (s, []).
Proof. exact CodecLaws.sh_safe. Qed.
Print Assumptions sh_safe.

(** per byte, for all 256 bytes: decoding undoes encoding in one step whatever follows (also inside format strings) *)
Theorem uri_byte : forall c n rest, uri_decode (S n) (uri_enc1 c ++ rest) = c :: uri_decode n rest.
Proof. exact uri_step. Qed.
Print Assumptions uri_byte.

Theorem html_byte : forall c n rest, html_unescape (S n) (html_esc1 c ++ rest) = c :: html_unescape n rest.
Proof. exact html_step. Qed.
Print Assumptions html_byte.

(** @csv / @tsv (Fmts/Tabular.v mirrors write/tabular.rs and the reader's state machine): a row of scalars, whatever bytes its
    strings contain, is read back field by field; a written TSV field contains no raw separator, line break or NUL *)
Theorem csv_row_reads_back : forall vs t,
  TabularLaws.row_ok vs -> vs <> [Val.Null] -> Tabular.write_csv (Val.Arr vs) = Some t -> Tabular.read_csv t = [Val.Arr vs].
Proof. exact TabularLaws.csv_row_roundtrip. Qed.
Print Assumptions csv_row_reads_back.

Theorem tsv_field_is_clean : forall s c, In c (Tabular.tsv_str s) -> (bz c <> 9 /\ bz c <> 10 /\ bz c <> 13 /\ bz c <> 0)%Z.
Proof. exact TabularLaws.tsv_str_no_sep. Qed.
Print Assumptions tsv_field_is_clean.

(** explode | implode : every byte string - any Unicode, control characters, invalid UTF-8 - is returned unchanged
    (characters as their code points, the bytes of invalid sequences as negative numbers) *)
Theorem explode_implode : forall s, implode (explode s) = Some (Ok s).
Proof. exact StringLaws.explode_implode. Qed.
Print Assumptions explode_implode.

(** a decoded character is a Unicode scalar value whose encoding is exactly the bytes that were read *)
Theorem decode_encode_char : forall s c n, decode1 s = (Some c, n) -> is_scalar c = true /\ encode1 c = firstn n s /\ (1 <= n)%nat.
Proof. exact StringLaws.decode1_encode1. Qed.
Print Assumptions decode_encode_char.

(** split($x) | join($x) : the pieces, joined by the separator, are the string - for every string and separator
    (an empty separator splits into characters and invalid sequences) *)
Theorem split_join : forall s sep, intercalate sep (split s sep) = s.
Proof. exact StringLaws.split_join. Qed.
Print Assumptions split_join.

(** ascii_downcase / ascii_upcase never change a byte outside ASCII, and change nothing but letters of the other case *)
Theorem ascii_case_keeps_non_ascii : forall s, Forall (fun b => (128 <= bz b)%Z) s ->
  ascii_map lower s = s /\ ascii_map upper s = s.
Proof. exact StringLaws.ascii_case_keeps_non_ascii. Qed.
Print Assumptions ascii_case_keeps_non_ascii.

Theorem ascii_case_bytewise : forall s,
  length (ascii_map lower s) = length s /\ length (ascii_map upper s) = length s
  /\ Forall2 (fun a b => b = a \/ (65 <= bz a <= 90 /\ bz b = bz a + 32)%Z) s (ascii_map lower s)
  /\ Forall2 (fun a b => b = a \/ (97 <= bz a <= 122 /\ bz b = bz a - 32)%Z) s (ascii_map upper s).
Proof. exact StringLaws.ascii_case_bytewise. Qed.
Print Assumptions ascii_case_bytewise.

(** the base64 decoder rejects rather than truncates: whatever it accepts is exactly the encoding of what it returns
    (whole quadruples, canonical padding, no stray trailing bits), so no two texts decode to the same bytes *)
Theorem base64_decoder_accepts_only_encodings : forall fuel s r, b64_decode fuel s = Some r -> b64_encode r = s.
Proof. exact Base64Strict.base64_decode_is_strict. Qed.
Print Assumptions base64_decoder_accepts_only_encodings.

Theorem base64_decoder_is_injective : forall fuel fuel' s s' r,
  b64_decode fuel s = Some r -> b64_decode fuel' s' = Some r -> s = s'.
Proof. exact Base64Strict.base64_decode_injective. Qed.
Print Assumptions base64_decoder_is_injective.
