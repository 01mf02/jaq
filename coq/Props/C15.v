(** C15 - Parsing depends only on tokens and the documented grammar, precedence and sugar. (operator layer and lexer)
    Model: Parse/PrecClimb.v (mirrors prec_climb.rs, the precedence/associativity of BinaryOp and Term::climb),
    Parse/Lex.v (mirrors lex.rs). *)
From Coq Require Import List Bool Arith.
From JaqV Require Import Parse.PrecClimb Proofs.PrecLaws Proofs.PrecGeneral Parse.Lex Proofs.LexLaws.
Import ListNotations.

(** for every chain of operands and operators, of any length, the tree reads back in order as exactly that chain:
    nothing is dropped, duplicated or reordered by precedence climbing *)
Theorem climb_roundtrip_sequence : forall x rest,
  exists rest', flat (climb_plain x rest) ++ flat_chain rest' = flat x ++ flat_chain rest.
Proof. intros x rest. exists []. cbn [flat_chain]. rewrite app_nil_r. apply climb_plain_flat. Qed.
Print Assumptions climb_roundtrip_sequence.

(** for chains of any length the whole chain is consumed and every node of the tree respects the table: the operator
    at the root of a left operand binds tighter than its parent (or equally, on a left-associative level), the one at the
    root of a right operand binds tighter (or equally, on a right-associative level); the leaves are the operands.
    With the sequence theorem above this fixes the tree: it is the one that the table's parentheses describe. *)
Theorem climb_respects_table : forall x rest,
  let P e := e = x \/ In e (map snd rest) in
  climb1 (S (2 * length rest)) x rest 0 = (climb_plain x rest, []) /\ okt P (climb_plain x rest).
Proof. exact PrecGeneral.climb_respects_table. Qed.
Print Assumptions climb_respects_table.

(** two trees over atoms that respect the table and read as the same operand/operator sequence are the same tree ... *)
Theorem table_tree_unique : forall t1 t2, okt atom t1 -> okt atom t2 -> seq t1 = seq t2 -> t1 = t2.
Proof. exact PrecGeneral.table_tree_unique. Qed.
Print Assumptions table_tree_unique.

(** ... so every fully parenthesised reading of a chain (of any length) that respects the table is the tree the parser
    builds: inserting the parentheses that the table implies, or removing them, never changes the program *)
Theorem climb_is_the_table_tree : forall x rest t, atom x -> Forall (fun ot => atom (snd ot)) rest ->
  okt atom t -> seq t = seq x ++ chain_seq rest -> climb_plain x rest = t.
Proof. exact PrecGeneral.climb_is_the_table_tree. Qed.
Print Assumptions climb_is_the_table_tree.

(** associativity is a property of the precedence level *)
Theorem assoc_by_level : forall a b, prec a = prec b -> right_assoc a = right_assoc b.
Proof. exact PrecGeneral.assoc_by_level. Qed.
Print Assumptions assoc_by_level.

(** precedence levels and associativities are exactly those tabulated in the manual *)
Theorem prec_table : forallb (fun o => (prec o =? doc_level o) && Bool.eqb (right_assoc o) (doc_right o)) all_ops = true.
Proof. exact PrecLaws.prec_table. Qed.
Print Assumptions prec_table.

(** every ordered pair of the 25 operators groups as the table implies (bindings extend to the right) *)
Theorem pairs_as_tabulated :
  forallb (fun o1 => forallb (fun o2 => expr_eqb (parse_chain (Atom 0) [(o1, Atom 1); (o2, Atom 2)]) (expected2 o1 o2)) all_ops) all_ops = true.
Proof. exact all_pairs_group_as_tabulated. Qed.
Print Assumptions pairs_as_tabulated.

(** every ordered triple (15625 of them) groups as inserting the table's parentheses implies *)
Theorem triples_as_tabulated :
  forallb (fun o1 => forallb (fun o2 => forallb (fun o3 =>
    expr_eqb (parse_chain (Atom 0) [(o1, Atom 1); (o2, Atom 2); (o3, Atom 3)]) (reference3 o1 o2 o3)) all_ops) all_ops) all_ops = true.
Proof. exact all_triples_group_as_tabulated. Qed.
Print Assumptions triples_as_tabulated.

(** the lexer (Parse/Lex.v mirrors jaq-core/src/load/lex.rs): white space and comments in front of a token change neither
    the token, nor what follows it, nor the verdict - for every input *)
Theorem token_skips_trivia : forall t s fuel, LexLaws.trivia t -> LexLaws.token_start s -> token fuel (t ++ s) = token fuel s.
Proof. exact LexLaws.token_skips_trivia. Qed.
Print Assumptions token_skips_trivia.

Theorem tokens_skip_trivia : forall t s fuel, LexLaws.trivia t -> LexLaws.token_start s ->
  let '(ts, r, ok) := tokens (S fuel) (t ++ s) in
  let '(ts', r', ok') := tokens (S fuel) s in
  ts = ts' /\ ok = ok' /\ (r = r' \/ (r = t ++ s /\ r' = s)).
Proof. exact LexLaws.tokens_skip_trivia. Qed.
Print Assumptions tokens_skip_trivia.
