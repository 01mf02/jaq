(** C06 - Filters and data cannot make jaq touch files, network or other processes.
    A Gallina model has no system calls; what it carries: (1) the loader model (Cli/Modules.v, mirror of Loader::load in
    jaq-core/src/load/mod.rs): the files that are read are determined by the import/include directives alone - every
    loaded file is the prelude or is named by a chain of directives starting in the main program, and none is read twice;
    (2) the documented exception --in-place (Cli/InPlace.v) changes nothing but the named file and its temporary file;
    (3) the modelled filters (Core/Run.v, Std/Natives.v, Fmts/Natives.v) are Gallina functions of input, arguments and
    variables - there is no world they could touch.  That the Rust natives and decoders do nothing else is observed at the
    system-call boundary (checks/c06.py), not proved. *)
From Coq Require Import List.
From JaqV Require Import Cli.Modules Cli.InPlace Proofs.ModuleLaws Proofs.InPlaceLaws.
Import ListNotations.

Theorem loaded_files_are_named : forall fs main_deps mods, load fs main_deps = inl mods ->
  forall m, In m mods -> m = prelude_file \/ reach fs main_deps m.
Proof. exact ModuleLaws.loaded_files_are_named. Qed.
Print Assumptions loaded_files_are_named.

Theorem loaded_once : forall fs main_deps mods, load fs main_deps = inl mods -> NoDup mods.
Proof. exact ModuleLaws.load_once. Qed.
Print Assumptions loaded_once.

Theorem in_place_touches_only_the_named_file : forall (j : job) (d : dir) q, q <> j_path j -> q <> j_tmp j ->
  lookup (run_ops d (ops_of j)) q = lookup d q.
Proof. exact InPlaceLaws.in_place_frame. Qed.
Print Assumptions in_place_touches_only_the_named_file.
