(** C02 - path(f), getpath and updates agree on the positions a filter denotes.
    Model: Core/Run.v ([part_run]/[part_paths], [path_run]/[path_paths] mirror jaq-core/src/path.rs),
    Val/Index.v (mirrors the indexing primitives of jaq-json/src/lib.rs); for terms and updates the evaluators [run], [paths],
    [update] of Core/Run.v (filter.rs). *)
From Coq Require Import List ZArith.
From JaqV Require Import Base.Stream Val.Val Val.Err Val.Index Core.Syntax Core.Run Proofs.PathLaws Proofs.GetpathLaws Proofs.UpdateRules Proofs.UpdateFolds Proofs.PathsProject.
Import ListNotations.

(** one path part: evaluating for paths yields, in order, exactly the values that evaluating for values yields,
    ended by the same terminator (also when the part fails) *)
Theorem part_paths_project : forall p v pa, smap fst (part_paths p (v, pa)) = part_run p v.
Proof. exact PathLaws.part_paths_project. Qed.
Print Assumptions part_paths_project.

(** a whole exploded path [.[i][j:k][]?...], with optional parts *)
Theorem paths_project : forall ps v pa, smap fst (path_paths ps (v, pa)) = path_run ps v.
Proof. exact PathLaws.path_paths_project. Qed.
Print Assumptions paths_project.

(** [.[]] enumerates with [vkey_values] the same values, in the same order, as [vvalues] does *)
Theorem iteration_positions_agree : forall v,
  match vkey_values v, vvalues v with
  | Ok kvs, Ok vs => map snd kvs = vs
  | Err e1, Err e2 => e1 = e2
  | _, _ => False
  end.
Proof. exact key_values_values. Qed.
Print Assumptions iteration_positions_agree.

Example paths_example :
  collect (path_paths [(VRange None None, false); (VIndex (vint 0%Z), true)] (Arr [Arr [vint 7%Z]; vint 1%Z], []))
  = ([(vint 7%Z, [vint 0%Z; vint 0%Z])], FEnd).
Proof. reflexivity. Qed.

(** getpath (path p) = p.  [good]: objects can be addressed by their own keys (IndexMap's invariant: unique keys that are
    equal to themselves; a NaN key is the excluded case).  One component: every (value, path) pair addresses its value ... *)
Theorem component_addresses_its_value : forall p v pa, GetpathLaws.good v ->
  GetpathLaws.sforall (fun xp => GetpathLaws.addressed v pa xp /\ GetpathLaws.good (fst xp)) (part_paths p (v, pa)).
Proof. exact GetpathLaws.part_addressed. Qed.
Print Assumptions component_addresses_its_value.

(** ... and whole paths of any length, through iteration, indices, slices and optional parts: for every pair that
    [path_value(p)] yields, [getpath] of the input along the path is exactly the value *)
Theorem getpath_of_path : forall ps v, GetpathLaws.good v ->
  GetpathLaws.sforall (fun xp => GetpathLaws.getpath (rev (snd xp)) v = Ok (fst xp)) (path_paths ps (v, [])).
Proof. exact GetpathLaws.getpath_of_path. Qed.
Print Assumptions getpath_of_path.

(** every JSON-like value (scalars, arrays, objects with pairwise different text keys) is such a value: for them the law
    holds without any side condition *)
Theorem getpath_of_path_json : forall ps v, GetpathLaws.json_like v ->
  GetpathLaws.sforall (fun xp => GetpathLaws.getpath (rev (snd xp)) v = Ok (fst xp)) (path_paths ps (v, [])).
Proof. exact GetpathLaws.getpath_of_path_json. Qed.
Print Assumptions getpath_of_path_json.

Example good_values_exist :
  GetpathLaws.good (Arr [vint 1%Z; Obj [(vstr [97%Z], Arr [Null; vint 2%Z]); (vint 5%Z, Bool true)]; TStr []]).
Proof. exact GetpathLaws.good_ex. Qed.

(** ** the reduction rules of updates *)
(** the interpreter's update clauses are the manual's rules: *)
(** [. |= u] applies u *)
Theorem update_identity : forall d nr defs n c v f, update d nr defs (S n) KId c v f = f v.
Proof. reflexivity. Qed.
Print Assumptions update_identity.

(** [(f | g) |= u]  =  [f |= (g |= u)] *)
Theorem update_pipe : forall d nr defs n l r c v f,
  update d nr defs (S n) (KPipe l None r) c v f = update d nr defs n l c v (fun x => update d nr defs n r c x f).
Proof. reflexivity. Qed.
Print Assumptions update_pipe.

(** [(f, g) |= u]  =  [(f |= u) | (g |= u)] *)
Theorem update_comma : forall d nr defs n l r c v f,
  update d nr defs (S n) (KComma l r) c v f = sbind (update d nr defs n l c v f) (fun x => update d nr defs n r c x f).
Proof. reflexivity. Qed.
Print Assumptions update_comma.

(** [(f as $x | g) |= u]: binding by binding, each on the result of the one before *)
Theorem update_binding : forall d nr defs n l pat r c v f,
  update d nr defs (S n) (KPipe l (Some pat) r) c v f
  = sreduce (run_and_bind d nr defs n l c v pat) v (fun c' x => update d nr defs n r c' x f).
Proof. reflexivity. Qed.
Print Assumptions update_binding.

Theorem reduce_over_bindings : forall A (xs : list A) acc (g : A -> val -> str val),
  sreduce (of_list xs) acc g = fold_left (fun s x => sbind s (g x)) xs (sone acc).
Proof. exact UpdateRules.reduce_over_bindings. Qed.
Print Assumptions reduce_over_bindings.

(** [if c then f else g end |= u]: per output of the condition, on the result of the one before *)
Theorem update_conditional : forall d nr defs n i th el c v f,
  update d nr defs (S n) (KIte i th el) c v f
  = sreduce (run d nr defs n i c v) v (fun x a => update d nr defs n (if as_bool x then th else el) c a f).
Proof. reflexivity. Qed.
Print Assumptions update_conditional.

(** [(f // g) |= u]: f when f has a truthy output - the manual's [if first(f // false)] -, else g *)
Theorem update_alternative : forall d nr defs n l r c v f,
  update d nr defs (S n) (KAlt l r) c v f
  = match sfilter as_bool (run d nr defs n l c v) with
    | SNil => update d nr defs n r c v f
    | SBot => SBot
    | SUnk => SUnk
    | _ => update d nr defs n l c v f
    end.
Proof. reflexivity. Qed.
Print Assumptions update_alternative.

(** a path [t.p1.p2...]: every exploded path is applied, in sequence, below t *)
Theorem update_path : forall d nr defs n l path c v f,
  update d nr defs (S n) (KPath l path) c v f
  = update d nr defs n l c v (fun x =>
      collect_then (explode d nr defs n path c v) (fun pss =>
        fold_left (fun acc ps => sbind acc (fun a => path_update ps a f)) pss (sone x))).
Proof. reflexivity. Qed.
Print Assumptions update_path.

(** an exploded path is updated part by part: [.p.q |= u] = [.p |= (.q |= u)] *)
Theorem path_update_composes : forall p1 p2 v f, p1 <> [] -> p2 <> [] ->
  path_update (p1 ++ p2) v f = path_update p1 v (fun x => path_update p2 x f).
Proof. exact UpdateRules.path_update_composes. Qed.
Print Assumptions path_update_composes.

(** what constructs a value has no path: updating it fails rather than guesses *)
Theorem update_of_constructed_value_fails : forall d nr defs n c v f t,
  (exists x, t = KInt x) \/ (exists x, t = KNum x) \/ (exists x, t = KStr x) \/ (exists x, t = KArr x) \/ t = KObjEmpty
  \/ (exists k x, t = KObjSingle k x) \/ (exists x, t = KNeg x) \/ (exists l o r, t = KMath l o r) \/ (exists l o r, t = KCmp l o r)
  \/ (exists l r, t = KLogic l true r) \/ (exists l r, t = KLogic l false r) \/ t = KToString ->
  update d nr defs (S n) t c v f = serr (EPathExpr v).
Proof. exact UpdateRules.update_of_constructed_value_fails. Qed.
Print Assumptions update_of_constructed_value_fails.

(** ** path(f) lists, in order, the positions of exactly the values f outputs *)
(** [ok_term k]: k contains neither `//` (whose paths follow the manual's `if first(f // false)` rule and include falsy
    outputs) nor `try` (which can catch the refusal of a value-constructing subterm) where it is evaluated for paths, and binds
    with plain variables; every other construct is admitted: pipes, commas, conditionals, bindings, reduce/foreach, labels,
    path terms of any length, `..`, calls of definitions with variable and filter arguments (closures), first/last/limit/skip
    and every other native (which refuse).  [sproj s r]: the stream of (value, path) pairs s carries the values of r, item by
    item and with the same end - or stops with the path-expression error.  For every fuel, term, context and input: *)
Theorem paths_carry_the_outputs : forall d nr defs, Forall ok_term defs ->
  forall n k c x p, ok_term k -> ok_ctx c -> sproj (paths d nr defs n k c (x, p)) (run d nr defs n k c x).
Proof. exact PathsProject.paths_carry_the_outputs. Qed.
Print Assumptions paths_carry_the_outputs.

(** when the path evaluator does not refuse, the values at the paths are exactly the outputs *)
Theorem path_values_are_the_outputs : forall d nr defs, Forall ok_term defs ->
  forall n k c x p, ok_term k -> ok_ctx c -> accepted (paths d nr defs n k c (x, p)) ->
  smap fst (paths d nr defs n k c (x, p)) = run d nr defs n k c x.
Proof. exact PathsProject.paths_values_exact. Qed.
Print Assumptions path_values_are_the_outputs.

(** updates through definitions, filter arguments and folds (Proofs/UpdateFolds.v): *)
(** [f(args) |= u]: a definition is updated through its body, for every combination of its variable arguments in turn *)
Theorem update_through_a_definition : forall d nr defs n id args skip ct c v f body, nth_error defs id = Some body ->
  update d nr defs (S n) (KCallDef id args skip ct) c v f
  = sreduce (bind_vars d nr defs n args (skip_vars skip c) c v) v (fun c' x => update d nr defs n body c' x f).
Proof. exact UpdateFolds.update_call. Qed.
Print Assumptions update_through_a_definition.

(** [g |= u] for a filter argument g: the argument's term is updated in the context it was written in *)
Theorem update_through_a_filter_argument : forall d nr defs n i c v f g fvars, nth_bind c i = Some (BFun g fvars) ->
  update d nr defs (S n) (KVar i) c v f = update d nr defs n g (with_vars fvars c) v f.
Proof. exact UpdateFolds.update_filter_argument. Qed.
Print Assumptions update_through_a_filter_argument.

(** [reduce/foreach xs as $x (init; upd) |= u] = [init |= (fold of upd over the bindings of xs)] ... *)
Theorem update_through_a_fold : forall d nr defs n xs pat init upd ft c v f,
  update d nr defs (S n) (KFold xs pat init upd ft) c v f
  = update d nr defs n init c v (fun x => fold_update d nr defs n ft upd x (run_and_bind d nr defs n xs c v pat) f).
Proof. exact UpdateFolds.update_fold. Qed.
Print Assumptions update_through_a_fold.

(** ... where the fold hands the update inwards item by item: for reduce [upd[x1] |= (upd[x2] |= ... u)] - the update through
    the nested-pipe expansion [init | upd[x1] | ... | upd[xn]] -, for foreach [upd[x1] |= (u | (upd[x2] |= (u | ...)))] *)
Theorem fold_update_nests : forall d nr defs ft upd f cs n v,
  fold_update d nr defs n ft upd v (of_list cs) f = UpdateFolds.nested d nr defs n ft upd cs f v.
Proof. exact UpdateFolds.fold_update_is_nested. Qed.
Print Assumptions fold_update_nests.

Theorem reduce_update_of_two_items : forall d nr defs n upd f c1 c2 v,
  fold_update d nr defs (S (S (S n))) Reduce upd v (of_list [c1; c2]) f
  = update d nr defs (S (S n)) upd c1 v (fun x => update d nr defs (S n) upd c2 x f).
Proof. intros. rewrite fold_update_nests. reflexivity. Qed.
Print Assumptions reduce_update_of_two_items.
