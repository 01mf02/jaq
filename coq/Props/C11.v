(** C11 - Stream combinators and generators satisfy their defining equations.
    Model: Core/Natives.v (mirrors the native limit/skip/first/last and range of jaq-core/src/funs.rs), the folds of Core/Run.v
    (fold.rs), and the definitions of nth, isempty, all, any in defs.jq transcribed over streams (Proofs/LastLaws.v). *)
From Coq Require Import ZArith List.
From JaqV Require Import Base.Stream Val.Num Val.Val Core.Syntax Core.Natives Core.Run Proofs.StreamLaws Proofs.FoldLaws Proofs.LastLaws.
From JaqV Require Proofs.CompileCorrect Proofs.MonadLaws.
Local Open Scope Z_scope.

(** limit(n; f) followed by skip(n; f) reproduces f: for every machine-integer count and every stream,
    including streams that end in an error, a break or never end within the fuel *)
Theorem limit_skip_append : forall A (s : str A) k, in_isize k = true ->
  sapp (limit (vint k) (fun _ => s)) (fun _ => skip (vint k) s) = s.
Proof. exact @limit_skip. Qed.
Print Assumptions limit_skip_append.

Theorem limit_nonpositive_is_empty : forall A (s : unit -> str A) k, k <= 0 -> limit (vint k) s = SNil.
Proof. exact @limit_nonpos. Qed.
Print Assumptions limit_nonpositive_is_empty.

Theorem skip_nonpositive_is_identity : forall A (s : str A) k, k <= 0 -> skip (vint k) s = s.
Proof. exact @skip_nonpos. Qed.
Print Assumptions skip_nonpositive_is_identity.

Theorem first_def : forall A (s : str A), first_s s = limit (vint 1) (fun _ => s).
Proof. exact @first_is_limit_1. Qed.
Print Assumptions first_def.

(** the first error ends the stream and is reported once: nothing can follow an exception *)
Theorem first_error_ends_once : forall A B e (r : unit -> str A) (f : A -> str B),
  sapp (SExn e) r = SExn e /\ sbind (SExn e) f = SExn e.
Proof. exact @MonadLaws.error_absorbs. Qed.
Print Assumptions first_error_ends_once.

Example limit_skip_example :
  collect (sapp (limit (vint 2) (fun _ => of_list (1 :: 2 :: 3 :: nil))) (fun _ => skip (vint 2) (of_list (1 :: 2 :: 3 :: nil))))
  = (1 :: 2 :: 3 :: nil, FEnd).
Proof. reflexivity. Qed.

(** ** reduce and foreach are their nested-pipe expansions *)
(** for every output of init, the interpreter folds over the outputs of the generator; [fold_go step emit fin] is the manual's
    expansion:  on y, k (the generator's first output and the rest)   step y acc | (emit y ., <the rest on .>)
    and [fin acc] at the end - for every number of outputs of the update and of the projection, and the error of the
    generator ends the fold. *)
Theorem fold_expansion : forall d nr defs fuel xs init upd ft c v,
  run d nr defs (S (S fuel)) (KFold xs PatVar init upd ft) c v
  = sbind (run d nr defs (S fuel) init c v)
      (CompileCorrect.fold_go (fun y acc => run d nr defs (S fuel) upd (cons_var y c) acc)
         (emit_of d nr defs (S fuel) ft c) (fin_of ft) (run d nr defs fuel xs c v)).
Proof. exact FoldLaws.fold_expansion. Qed.
Print Assumptions fold_expansion.

Theorem fold_unrolls : forall step emit fin,
  (forall acc, CompileCorrect.fold_go step emit fin SNil acc = fin acc)
  /\ (forall y k acc, CompileCorrect.fold_go step emit fin (SCons y k) acc
                      = sbind (step y acc) (fun z => sapp (emit y z) (fun _ => CompileCorrect.fold_go step emit fin (k tt) z)))
  /\ (forall e acc, CompileCorrect.fold_go step emit fin (SExn e) acc = SExn e).
Proof. exact FoldLaws.fold_go_unroll. Qed.
Print Assumptions fold_unrolls.

(** reduce over a generator with the outputs ys:  init | (y1 as $x | upd) | (y2 as $x | upd) | ... *)
Theorem reduce_is_nested_pipes : forall d nr defs fuel xs init upd c v ys, run d nr defs fuel xs c v = of_list ys ->
  run d nr defs (S (S fuel)) (KFold xs PatVar init upd Reduce) c v
  = sbind (run d nr defs (S fuel) init c v) (reduce_pipes (fun y acc => run d nr defs (S fuel) upd (cons_var y c) acc) ys).
Proof. exact FoldLaws.reduce_is_nested_pipes. Qed.
Print Assumptions reduce_is_nested_pipes.

(** ** range/3 on machine integers with a positive step: exactly the arithmetic progression below the bound *)
Theorem range_is_the_progression : forall n a b c fuel, 0 < c ->
  (forall i, (i < n)%nat -> a + Z.of_nat i * c < b) -> b <= a + Z.of_nat n * c ->
  (forall i, (i <= n)%nat -> in_isize (a + Z.of_nat i * c) = true) -> (n < fuel)%nat ->
  range fuel (vint a) (vint b) (vint c) = of_list (map (fun i => vint (a + Z.of_nat i * c)) (seq 0 n)).
Proof. exact FoldLaws.range_up. Qed.
Print Assumptions range_is_the_progression.

(** `last(f)`: decided by how the stream ends - the last output of a stream that ends normally, nothing for an empty one,
    and the first error, break or halt inside the stream ends it (what came before is not delivered): exactly
    `[f] | if length == 0 then empty else .[-1] end` *)
Theorem last_is_the_last_of_the_collected_stream : forall A (s : str A),
  last_s s = collect_then s (fun ys => match rev ys with y :: _ => sone y | nil => SNil end).
Proof. exact @LastLaws.last_is_collect_then_last. Qed.
Print Assumptions last_is_the_last_of_the_collected_stream.

Theorem last_stops_at_the_first_error : forall A (ys : list A) e (rest : unit -> str A),
  last_s (sapp (of_list ys) (fun _ => sapp (SExn e) rest)) = SExn e.
Proof. exact @LastLaws.last_stops_at_the_first_error. Qed.
Print Assumptions last_stops_at_the_first_error.

(** `nth(n; f)` = `first(skip(n; f))` (its definition in defs.jq): the n-th output counted from 0, nothing when the stream has
    no more than n outputs, the first output for n <= 0 *)
Theorem nth_is_first_of_skip : forall A (ys : list A) k, in_isize k = true ->
  first_s (skip (vint k) (of_list ys))
  = if k <=? 0 then first_s (of_list ys)
    else match nth_error ys (Z.to_nat k) with Some y => sone y | None => SNil end.
Proof. exact @LastLaws.nth_def. Qed.
Print Assumptions nth_is_first_of_skip.

(** `isempty(g)` = `first((g | false), true)` (its definition in defs.jq): true for a stream without outputs, false as soon as
    there is a first output whatever follows it, and the stream's own failure when it fails before its first output *)
Theorem isempty_looks_at_the_first_output_only : forall A (s : str A),
  LastLaws.isempty_s s = match s with
                         | SNil => sone (Bool true)
                         | SCons _ _ => sone (Bool false)
                         | SExn e => SExn e
                         | SBot => SBot
                         | SUnk => SUnk
                         end.
Proof. exact @LastLaws.isempty_spec. Qed.
Print Assumptions isempty_looks_at_the_first_output_only.

(** `all(g; cond)` = `isempty(g | cond and empty)` and `any(g; cond)` = `isempty(g | cond or empty) | not` (defs.jq), on the
    stream of the truth values of cond: the conjunction / disjunction of all of them, decided at the first deciding value -
    what follows it (an error, a halt, no end) is not looked at *)
Theorem all_is_the_conjunction : forall bs, LastLaws.all_s (of_list bs) = sone (Bool (forallb (fun b => b) bs)).
Proof. exact LastLaws.all_of_list. Qed.
Print Assumptions all_is_the_conjunction.

Theorem any_is_the_disjunction : forall bs, LastLaws.any_s (of_list bs) = sone (Bool (existsb (fun b => b) bs)).
Proof. exact LastLaws.any_of_list. Qed.
Print Assumptions any_is_the_disjunction.

Theorem all_stops_at_the_first_false : forall n (rest : unit -> str bool),
  LastLaws.all_s (sapp (of_list (repeat true n ++ (false :: nil))) rest) = sone (Bool false).
Proof. exact LastLaws.all_stops_at_the_first_false. Qed.
Print Assumptions all_stops_at_the_first_false.

Theorem any_stops_at_the_first_true : forall n (rest : unit -> str bool),
  LastLaws.any_s (sapp (of_list (repeat false n ++ (true :: nil))) rest) = sone (Bool true).
Proof. exact LastLaws.any_stops_at_the_first_true. Qed.
Print Assumptions any_stops_at_the_first_true.
