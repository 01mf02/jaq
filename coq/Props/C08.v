(** C08 - Comparison is one consistent total order; equal values are interchangeable keys.
    Property theorems only; proofs in Proofs/F64Order.v, Proofs/NumExact.v, Proofs/HashLaws.v, Proofs/ValOrder.v (with
    Proofs/OfZExact.v for integers next to floats), Proofs/BsearchLaws.v. *)
From Coq Require Import ZArith List Sorting.Sorted.
From JaqV Require Import Base.F64 Val.Num Val.Val Proofs.F64Order Proofs.NumExact Proofs.HashLaws Proofs.ValOrder Proofs.BsearchLaws Std.Natives.
Local Open Scope Z_scope.

(** floats free of NaN: [float_cmp] is a total preorder with both zeros identified *)
Theorem float_order_reflexive : forall b, nonan b -> float_cmp b b = Eq.
Proof. exact float_cmp_refl. Qed.
Print Assumptions float_order_reflexive.

Theorem float_order_antisymmetric : forall l r, nonan l -> nonan r -> float_cmp r l = CompOpp (float_cmp l r).
Proof. exact float_cmp_antisym. Qed.
Print Assumptions float_order_antisymmetric.

Theorem float_order_transitive : forall a b c o, nonan a -> nonan b -> nonan c ->
  float_cmp a b = o -> float_cmp b c = o -> float_cmp a c = o.
Proof. exact float_cmp_trans. Qed.
Print Assumptions float_order_transitive.

Theorem float_order_transitive_le : forall a b c, nonan a -> nonan b -> nonan c ->
  float_cmp a b <> Gt -> float_cmp b c <> Gt -> float_cmp a c <> Gt.
Proof. exact float_cmp_trans_le. Qed.
Print Assumptions float_order_transitive_le.

(** exactly one of <, ==, > *)
Theorem float_trichotomy : forall l r, nonan l -> nonan r ->
  (float_cmp l r = Lt /\ float_eq l r = false /\ float_cmp r l = Gt) \/
  (float_cmp l r = Eq /\ float_eq l r = true /\ float_cmp r l = Eq) \/
  (float_cmp l r = Gt /\ float_eq l r = false /\ float_cmp r l = Lt).
Proof. exact F64Order.float_trichotomy. Qed.
Print Assumptions float_trichotomy.

(** integers of any size and representation: the order and equality of the mathematical integers *)
Theorem int_order_exact : forall x y a b, int_val x = Some a -> int_val y = Some b ->
  num_cmp x y = Z.compare a b /\ num_eqb x y = (a =? b).
Proof. exact NumExact.int_order_exact. Qed.
Print Assumptions int_order_exact.

(** equal numbers are interchangeable as keys: whatever the representations (machine integer, big integer, float,
    decimal literal), numbers that are [==] feed the hasher the same writes.  [image_ok]: the float image is a 64-bit
    pattern, finite for machine integers - facts about SpecFloat's rounding, assumed explicitly and checked on examples *)
Theorem equal_numbers_hash_equally : forall x y, HashLaws.image_ok x -> HashLaws.image_ok y ->
  num_eqb x y = true -> hash_num x = hash_num y.
Proof. exact HashLaws.hash_coherent. Qed.
Print Assumptions equal_numbers_hash_equally.

Example zeros_equal : float_cmp pos_zero neg_zero = Eq /\ float_eq pos_zero neg_zero = true /\ nonan neg_zero.
Proof. repeat split. Qed.

(** ** the order of nested values *)
(** [tpo c P]: on the class P the three-way comparison c is reflexive, antisymmetric (c b a is the opposite of c a b) and
    transitive (a <= b <= d gives a <= d) - a total preorder, with exactly one of <, ==, > for any pair.
    [vok N v]: every number inside v - at any depth, in arrays, as object keys and values - belongs to the class N.
    Whenever the order of numbers is a total preorder on N, the order of values is one on all such values: arrays compare
    lexicographically, objects by their sorted keys and then by their values in that order. *)
Theorem value_order_lifts : forall N, tpo num_cmp N -> tpo val_cmp (vok N).
Proof. exact ValOrder.val_cmp_tpo. Qed.
Print Assumptions value_order_lifts.

Theorem value_trichotomy : forall N, tpo num_cmp N -> forall a b, vok N a -> vok N b ->
  (val_cmp a b = Lt /\ val_cmp b a = Gt) \/ (val_cmp a b = Eq /\ val_cmp b a = Eq) \/ (val_cmp a b = Gt /\ val_cmp b a = Lt).
Proof. exact ValOrder.val_trichotomy. Qed.
Print Assumptions value_trichotomy.

(** values whose numbers are integers of any size (machine or big) *)
Theorem value_order_integers : tpo val_cmp (vok all_int).
Proof. exact ValOrder.val_order_integers. Qed.
Print Assumptions value_order_integers.

(** values whose numbers are floats free of NaN *)
Theorem value_order_floats : tpo val_cmp (vok all_float).
Proof. exact ValOrder.val_order_floats. Qed.
Print Assumptions value_order_floats.

(** values that mix integers up to 4096 in magnitude (either representation) with NaN-free floats: the conversion of these
    integers is exact and strictly monotone (as it is for every integer below 2^53, [OfZExact.of_Z_exact]; the numbers of
    that larger class are ordered the same way, [ValOrder.exact_tpo]) *)
Theorem value_order_mixed_small : tpo val_cmp (vok small_or_float).
Proof. exact ValOrder.val_order_mixed. Qed.
Print Assumptions value_order_mixed_small.

(** the fuel of the comparison beyond the nesting depth does not matter *)
Theorem comparison_fuel_irrelevant : forall n x y, (depth x < n)%nat -> (depth y < n)%nat -> val_cmp x y = cmp_f n x y.
Proof. exact ValOrder.val_cmp_fuel. Qed.
Print Assumptions comparison_fuel_irrelevant.

(** `bsearch($x)` (Std/Natives.v [bsearch]: the binary search of the standard library that jaq calls) on an array sorted by the
    order of values, for every class of values on which that order is a total preorder (the instances above): a non-negative
    result is the position of an element equal to $x, there is one whenever $x occurs, and a negative result -1 - r names the
    insertion point - everything before it is smaller, everything from it on greater *)
Theorem bsearch_on_sorted_arrays : forall P, tpo val_cmp P -> forall a x, Forall P a -> P x ->
  StronglySorted (fun u v => val_cmp u v <> Gt) a -> a <> nil ->
  (forall z, 0 <= z -> bsearch a x = z -> val_cmp (nth (Z.to_nat z) a Null) x = Eq /\ (Z.to_nat z < length a)%nat)
  /\ (forall i, (i < length a)%nat -> val_cmp (nth i a Null) x = Eq -> 0 <= bsearch a x)
  /\ (forall r, bsearch a x = -1 - Z.of_nat r ->
        (r <= length a)%nat /\ (forall i, (i < r)%nat -> val_cmp (nth i a Null) x = Lt)
        /\ (forall i, (r <= i < length a)%nat -> val_cmp (nth i a Null) x = Gt)).
Proof. exact BsearchLaws.bsearch_sorted. Qed.
Print Assumptions bsearch_on_sorted_arrays.
