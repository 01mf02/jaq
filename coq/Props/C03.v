(** C03 - Streams are produced on demand; consumers of a prefix never run the rest.
    Model: Base/Stream.v (lazy streams whose tails are thunks; the remainder of a stream may be an error, a halt, a break,
    out-of-fuel divergence [SBot] or more items), Core/Natives.v ([first], [limit]), Core/Run.v (the interpreter).
    [pre k s] are the first [k] items of [s] obtained without looking at anything after them.  The consumption of the
    shared input stream is observed on the implementation (checks/c03.py), not modelled. *)
From Coq Require Import List ZArith.
From JaqV Require Import Base.Stream Val.Num Val.Val Core.Syntax Core.Natives Core.Run Proofs.LazyLaws Proofs.FoldLazy.
Import ListNotations.
Local Open Scope Z_scope.

(** whatever follows the items a prefix consumer needs - [r1] or [r2], anything - its result is the same:
    the first k items themselves, [first], [limit(n; _)], and the consumer that stops iterating after k outputs *)
Theorem prefix_consumers_ignore_rest : forall A (xs : list A) (r1 r2 : unit -> str A),
  let s1 := sapp (of_list xs) r1 in
  let s2 := sapp (of_list xs) r2 in
  (forall k, (k <= length xs)%nat -> pre k s1 = pre k s2)
  /\ (xs <> [] -> first_s s1 = first_s s2)
  /\ (forall n, (n <= length xs)%nat -> in_isize (Z.of_nat n) = true ->
        limit (vint (Z.of_nat n)) (fun _ => s1) = limit (vint (Z.of_nat n)) (fun _ => s2))
  /\ (forall k, (k <= length xs)%nat -> fst (take k s1) = fst (take k s2)).
Proof. exact @LazyLaws.prefix_consumers_ignore_rest. Qed.
Print Assumptions prefix_consumers_ignore_rest.

(** [limit(n; s)] is exactly the first n outputs, then the end *)
Theorem limit_is_prefix : forall A n (s : str A) l, pre n s = Some l -> in_isize (Z.of_nat n) = true ->
  limit (vint (Z.of_nat n)) (fun _ => s) = of_list l.
Proof. exact @LazyLaws.limit_pre. Qed.
Print Assumptions limit_is_prefix.

Theorem first_is_head : forall A (s : str A) x, pre 1 s = Some [x] -> first_s s = sone x.
Proof. exact @LazyLaws.first_pre. Qed.
Print Assumptions first_is_head.

(** [label $x | (xs..., break $x, rest)] *)
Theorem label_break_ignores_rest : forall A lb (xs : list A) r,
  slabel lb (sapp (of_list xs) (fun _ => sapp (SExn (XBreak lb)) r)) = of_list xs.
Proof. exact @LazyLaws.label_break. Qed.
Print Assumptions label_break_ignores_rest.

(** the combinators of the interpreter hand prefixes through: [s | f] needs only the items of [s] that produce the prefix *)
Theorem pipe_prefix : forall A B (f : A -> str B) xs k l r,
  pre k (sbind (of_list xs) f) = Some l -> pre k (sbind (sapp (of_list xs) r) f) = Some l.
Proof. exact @LazyLaws.pre_sbind. Qed.
Print Assumptions pipe_prefix.

(** the interpreter, construct by construct *)
Theorem comma_lazy : forall d nr defs n l r c v k xs,
  pre k (run d nr defs n l c v) = Some xs -> pre k (run d nr defs (S n) (KComma l r) c v) = Some xs.
Proof. exact LazyLaws.run_comma_lazy. Qed.
Print Assumptions comma_lazy.

Theorem pipe_lazy : forall d nr defs n l r c v ys rest k xs,
  run d nr defs n l c v = sapp (of_list ys) rest ->
  pre k (sbind (of_list ys) (fun y => run d nr defs n r c y)) = Some xs ->
  pre k (run d nr defs (S n) (KPipe l None r) c v) = Some xs.
Proof. exact LazyLaws.run_pipe_lazy. Qed.
Print Assumptions pipe_lazy.

Theorem try_lazy : forall d nr defs n f h c v k xs,
  pre k (run d nr defs n f c v) = Some xs -> pre k (run d nr defs (S n) (KTryCatch f h) c v) = Some xs.
Proof. exact LazyLaws.run_try_lazy. Qed.
Print Assumptions try_lazy.

Theorem label_lazy : forall d nr defs n f c v k xs,
  pre k (run d nr defs n f (cons_label c) v) = Some xs -> pre k (run d nr defs (S n) (KLabel f) c v) = Some xs.
Proof. exact LazyLaws.run_label_lazy. Qed.
Print Assumptions label_lazy.

Theorem alt_lazy : forall d nr defs n l r c v x t,
  run d nr defs n l c v = SCons x t -> as_bool x = true -> first_s (run d nr defs (S n) (KAlt l r) c v) = sone x.
Proof. exact LazyLaws.run_alt_lazy. Qed.
Print Assumptions alt_lazy.

(** reduce and foreach ask their source for the next item only after the update has yielded a state for the current one
    (Proofs/FoldLazy.v): when the update on an item yields nothing, or fails, breaks or halts, the fold ends there whatever
    the rest [k] of the source would do (read inputs, fail, never end); foreach delivers its output for the current item
    before the source is asked again *)
Theorem fold_ignores_the_rest_after_an_empty_update : forall d nr defs fuel xs init upd ft c v i y (k : unit -> str val),
  run d nr defs (S fuel) init c v = sone i -> run d nr defs fuel xs c v = SCons y k ->
  run d nr defs (S fuel) upd (cons_var y c) i = SNil ->
  run d nr defs (S (S fuel)) (KFold xs PatVar init upd ft) c v = SNil.
Proof. exact FoldLazy.fold_ignores_rest_after_empty. Qed.
Print Assumptions fold_ignores_the_rest_after_an_empty_update.

Theorem fold_ignores_the_rest_after_an_exception : forall d nr defs fuel xs init upd ft c v i y (k : unit -> str val) e,
  run d nr defs (S fuel) init c v = sone i -> run d nr defs fuel xs c v = SCons y k ->
  run d nr defs (S fuel) upd (cons_var y c) i = SExn e ->
  run d nr defs (S (S fuel)) (KFold xs PatVar init upd ft) c v = SExn e.
Proof. exact FoldLazy.fold_ignores_rest_after_exception. Qed.
Print Assumptions fold_ignores_the_rest_after_an_exception.

Theorem foreach_delivers_before_the_source_is_asked_again : forall d nr defs fuel xs init upd c v i y (k : unit -> str val) z t,
  run d nr defs (S fuel) init c v = sone i -> run d nr defs fuel xs c v = SCons y k ->
  run d nr defs (S fuel) upd (cons_var y c) i = SCons z t ->
  exists tl, run d nr defs (S (S fuel)) (KFold xs PatVar init upd (Foreach None)) c v = SCons z tl.
Proof. exact FoldLazy.foreach_first_output. Qed.
Print Assumptions foreach_delivers_before_the_source_is_asked_again.
