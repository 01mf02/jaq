(** C17 - The command line prints each output once, in order, and reports the true outcome. (partial)
    Model: Cli/Main.v (main loop, input reading for json/raw/raw0, rendering, exit status), on top of the
    interpreter, the JSON writer and reader.  Not in the model: terminal detection, colours, files, input/inputs. *)
From Coq Require Import ZArith List.
From JaqV Require Import Cli.Main Proofs.CliLaws.
Import ListNotations.

(** every output is written completely and in order, after everything written before it *)
Theorem outputs_in_order : forall o items, no_raw0 o -> forall acc last,
  emit o items acc last = (acc ++ concat (map (render_or_empty o) items), last_of items last, true).
Proof. exact emit_spec. Qed.
Print Assumptions outputs_in_order.

(** what has been written before an error (or before the next input) stays written *)
Theorem outputs_before_error : forall fuel o p g inputs out last,
  exists more, fst (main_loop fuel o p g inputs out last) = out ++ more.
Proof. exact main_loop_extends. Qed.
Print Assumptions outputs_before_error.

(** output options (-c, -S, --tab, --indent, -r, -j) change only the rendering, never the outcome *)
Theorem option_frame : forall fuel o1 o2 p g inputs, no_raw0 o1 -> no_raw0 o2 -> forall out1 out2 last,
  snd (main_loop fuel o1 p g inputs out1 last) = snd (main_loop fuel o2 p g inputs out2 last).
Proof. exact outcome_frame. Qed.
Print Assumptions option_frame.

Theorem exit_status_table : forall o,
  (forall last, o_exit_status o = false -> exit_code o (Finished last) = 0%Z) /\
  (o_exit_status o = true -> exit_code o (Finished None) = 4%Z /\ exit_code o (Finished (Some false)) = 1%Z /\ exit_code o (Finished (Some true)) = 0%Z) /\
  exit_code o RunError = 5%Z /\ (forall l, exit_code o (InputError l) = 5%Z) /\
  (forall c, (0 <= c < 256)%Z -> exit_code o (Halted c) = c) /\ exit_code o WriteError = 2%Z.
Proof. exact exit_code_table. Qed.
Print Assumptions exit_status_table.

(** option parsing (Cli/Args.v mirrors Cli::parse): -j joins outputs and selects raw output only when no output
    format was chosen before it; later format options override earlier ones *)
From JaqV Require Import Cli.Args.
From Coq Require Import Strings.String Strings.Ascii.

Theorem join_keeps_earlier_format : forall c f, c_to c = Some f ->
  option_map c_to (short c "j"%char) = Some (Some f) /\ option_map c_join (short c "j"%char) = Some true.
Proof. intros c f H. cbn. rewrite H. split; reflexivity. Qed.
Print Assumptions join_keeps_earlier_format.

Theorem join_defaults_to_raw : forall c, c_to c = None -> option_map c_to (short c "j"%char) = Some (Some FRaw).
Proof. intros c H. cbn. rewrite H. reflexivity. Qed.
Print Assumptions join_defaults_to_raw.

Example args_example :
  match parse_cli ["--raw-output0"; "-cj"; "."; "f1"; "--args"; "a"]%string with
  | inl c => (c_to c, c_join c, c_compact c, c_filter c, c_files c, c_args c) = (Some FRaw0, true, true, Some "."%string, ["f1"%string], ["a"%string])
  | inr _ => False
  end.
Proof. reflexivity. Qed.
