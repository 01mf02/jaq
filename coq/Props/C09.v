(** C09 - Integer arithmetic is exact at any size; operators follow the manual's rules.
    Property theorems only; proofs are in Proofs/NumExact.v and, for the non-numeric cases, Proofs/ArithLaws.v (over
    Proofs/StringLaws.v for [split]).  Model: Val/Num.v (mirrors jaq-json/src/num.rs), tied to the code by the
    correspondence check of `jv check C09`. *)
From Coq Require Import ZArith Bool List.
From JaqV Require Import Base.F64 Val.Num Val.Val Val.Err Val.Arith Proofs.NumExact Proofs.StringLaws Proofs.ArithLaws.
Import ListNotations.
Local Open Scope Z_scope.

Theorem add_exact : forall x y a b, int_val x = Some a -> int_val y = Some b -> int_val (add x y) = Some (a + b).
Proof. exact (lifts_exact _ _ _ add_lifts). Qed.
Print Assumptions add_exact.

Theorem sub_exact : forall x y a b, int_val x = Some a -> int_val y = Some b -> int_val (sub x y) = Some (a - b).
Proof. exact (lifts_exact _ _ _ sub_lifts). Qed.
Print Assumptions sub_exact.

Theorem mul_exact : forall x y a b, int_val x = Some a -> int_val y = Some b -> int_val (mul x y) = Some (a * b).
Proof. exact (lifts_exact _ _ _ mul_lifts). Qed.
Print Assumptions mul_exact.

Theorem neg_exact : forall x a, int_val x = Some a -> int_val (neg x) = Some (- a).
Proof. exact NumExact.neg_exact. Qed.
Print Assumptions neg_exact.

Theorem rem_exact : forall x y a b, int_val x = Some a -> int_val y = Some b -> int_val (rem x y) = Some (Z.rem a b).
Proof. exact (lifts_exact _ _ _ rem_lifts). Qed.
Print Assumptions rem_exact.

(** an operation yields an integer exactly when both operands are integers and the operator is + - * % *)
Theorem int_iff : forall x y,
  is_int (add x y) = (is_int x && is_int y) /\ is_int (sub x y) = (is_int x && is_int y) /\
  is_int (mul x y) = (is_int x && is_int y) /\ is_int (rem x y) = (is_int x && is_int y) /\
  is_int (div x y) = false.
Proof.
  intros x y. repeat split; [apply (lifts_int_iff _ _ _ add_lifts) | apply (lifts_int_iff _ _ _ sub_lifts)
                            | apply (lifts_int_iff _ _ _ mul_lifts) | apply (lifts_int_iff _ _ _ rem_lifts)].
Qed.
Print Assumptions int_iff.

(** otherwise the IEEE-754 double result of the converted operands (SpecFloat's operations) *)
Theorem float_otherwise : forall x y, (is_int x && is_int y) = false ->
  add x y = Flt (fadd (to_f64 x) (to_f64 y)) /\ sub x y = Flt (fsub (to_f64 x) (to_f64 y)) /\
  mul x y = Flt (fmul (to_f64 x) (to_f64 y)) /\ rem x y = Flt (frem (to_f64 x) (to_f64 y)).
Proof.
  intros x y I. repeat split; [apply (lifts_float _ _ _ add_lifts) | apply (lifts_float _ _ _ sub_lifts)
                              | apply (lifts_float _ _ _ mul_lifts) | apply (lifts_float _ _ _ rem_lifts)]; exact I.
Qed.
Print Assumptions float_otherwise.

Theorem div_always_float : forall x y, div x y = Flt (fdiv (to_f64 x) (to_f64 y)).
Proof. reflexivity. Qed.
Print Assumptions div_always_float.

(** integer consumers behave identically for equal integers however stored *)
Theorem repr_independent_index : forall x y a, int_val x = Some a -> int_val y = Some a ->
  num_is_wf x = true -> num_is_wf y = true -> as_pos_usize x = as_pos_usize y /\ as_isize x = as_isize y.
Proof. exact NumExact.repr_independent_index. Qed.
Print Assumptions repr_independent_index.

Theorem repr_independent_cmp : forall x y a b, int_val x = Some a -> int_val y = Some b ->
  num_cmp x y = Z.compare a b /\ num_eqb x y = (a =? b).
Proof. exact NumExact.int_order_exact. Qed.
Print Assumptions repr_independent_cmp.

(** non-vacuity: a machine integer and a big integer with the same value *)
Example repr_example : int_val (Int 3) = Some 3 /\ int_val (Big 3) = Some 3 /\ int_val (add (Int isize_max) (Int 1)) = Some two63.
Proof. repeat split. Qed.

(** ** the non-numeric cases (Val/Arith.v mirrors impl Add/Sub/Mul/Div/Rem for Val in jaq-json/src/lib.rs) *)

(** null is neutral for [+] *)
Theorem add_null_neutral : forall v, vadd Null v = Ok v /\ vadd v Null = Ok v.
Proof. exact ArithLaws.add_null_neutral. Qed.
Print Assumptions add_null_neutral.

(** strings and arrays concatenate *)
Theorem add_concatenates :
  (forall a b, vadd (TStr a) (TStr b) = Ok (TStr (a ++ b))) /\ (forall a b, vadd (BStr a) (BStr b) = Ok (BStr (a ++ b)))
  /\ (forall a b, vadd (Arr a) (Arr b) = Ok (Arr (a ++ b))).
Proof. exact ArithLaws.add_concatenates. Qed.
Print Assumptions add_concatenates.

(** array [-] removes all elements equal to some element of the right operand and keeps the others in order *)
Theorem array_minus : forall a b, exists c, vsub (Arr a) (Arr b) = Ok (Arr c)
  /\ c = filter (fun v => negb (existsb (equal v) b)) a
  /\ (forall v, In v c <-> In v a /\ forall w, In w b -> equal v w = false).
Proof. exact ArithLaws.array_minus. Qed.
Print Assumptions array_minus.

(** string [/] splits with [join] as its inverse *)
Theorem div_splits : forall s sep, exists ps, vdiv (TStr s) (TStr sep) = Ok (Arr (map TStr ps)) /\ intercalate sep ps = s.
Proof. exact ArithLaws.div_splits. Qed.
Print Assumptions div_splits.

(** everything else is an error: each operator succeeds exactly on the shapes the manual lists; [%] by the integer zero fails *)
Theorem operator_shapes : forall x y,
  (if add_shape x y then exists v, vadd x y = Ok v else vadd x y = Err (EMath x Add y))
  /\ (if sub_shape x y then exists v, vsub x y = Ok v else vsub x y = Err (EMath x Sub y))
  /\ (if mul_shape x y then vmul x y <> Some (Err (EMath x Mul y)) else vmul x y = Some (Err (EMath x Mul y)))
  /\ (if div_shape x y then exists v, vdiv x y = Ok v else vdiv x y = Err (EMath x Div y))
  /\ (match x, y with
      | Num a, Num b => if is_int a && is_int b && num_eqb b (Int 0) then vrem x y = Err (EMath x Rem y)
                        else vrem x y = Ok (Num (Num.rem a b))
      | _, _ => vrem x y = Err (EMath x Rem y)
      end).
Proof. exact ArithLaws.operator_shapes. Qed.
Print Assumptions operator_shapes.
