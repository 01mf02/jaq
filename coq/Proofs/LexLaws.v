(** The lexer skips trivia: ASCII white space and comments in front of a token change neither the token nor what
    follows it. *)
From Coq Require Import ZArith Bool List Lia.
From Coq Require Import Init.Byte.
From JaqV Require Import Base.Bytes Parse.Lex Proofs.DecodeLaws.
Import ListNotations.
Local Open Scope Z_scope.

Definition ascii_ws (c : byte) : bool := ((9 <=? bz c) && (bz c <=? 13)) || (bz c =? 32).

(** a character at which a token (or the end of a block) can start: neither white space nor the start of a comment *)
Definition token_start (s : bytes) : Prop :=
  match s with [] => True | c :: _ => ws_len s = 0%nat /\ bz c <> 35 end.

Lemma ws_len_ascii c r : ascii_ws c = true -> ws_len (c :: r) = 1%nat.
Proof. unfold ascii_ws, ws_len. cbn [map]. intros ->. reflexivity. Qed.

Lemma trim_start_ws fuel c r : ascii_ws c = true -> trim_start (S fuel) (c :: r) = trim_start fuel r.
Proof. intros H. cbn [trim_start]. rewrite (ws_len_ascii c r H). reflexivity. Qed.

Lemma trim_start_stop fuel s : ws_len s = 0%nat -> trim_start fuel s = s.
Proof. intros H. destruct fuel; [reflexivity|]. cbn [trim_start]. rewrite H. reflexivity. Qed.

(** enough fuel: white space is removed completely *)
Lemma trim_start_full ws : forall s fuel, forallb ascii_ws ws = true -> ws_len s = 0%nat -> (length ws <= fuel)%nat ->
  trim_start fuel (ws ++ s) = s.
Proof.
  induction ws as [|c ws IH]; intros s fuel Hw Hs Hf.
  - apply trim_start_stop. exact Hs.
  - cbn [forallb] in Hw. apply andb_prop in Hw as [Hc Hw]. destruct fuel as [|fuel]; [cbn in Hf; lia|].
    cbn [app]. rewrite trim_start_ws by exact Hc. apply IH; [exact Hw|exact Hs|cbn in Hf; lia].
Qed.

Lemma space_stop fuel s : token_start s -> space (S fuel) s = s.
Proof.
  intros H. cbn [space]. destruct s as [|c r]; [reflexivity|]. destruct H as [Hw Hc].
  rewrite trim_start_stop by exact Hw. destruct (Z.eqb_spec (bz c) 35); [contradiction|reflexivity].
Qed.

(** a comment line: no line feed in it, and it does not end with an odd number of backslashes (which would continue it) *)
Definition comment_line (l : bytes) : Prop :=
  forallb (fun c => negb (bz c =? 10)) l = true
  /\ Nat.even (count_trailing_bs (match rev l with c :: r => if bz c =? 13 then r else rev l | [] => [] end)) = true.

Lemma split_line_spec l rest acc : forallb (fun c => negb (bz c =? 10)) l = true ->
  split_line (l ++ zb 10 :: rest) acc = (rev acc ++ l, rest).
Proof.
  intros H. rewrite (copy_acc (fun c => negb (bz c =? 10)) split_line); [|intros c r a Hc|exact H].
  - cbn [split_line]. change (bz (zb 10) =? 10) with true. cbn iota. rewrite rev_app_distr, rev_involutive. reflexivity.
  - cbn [split_line]. apply negb_true_iff in Hc. rewrite Hc. reflexivity.
Qed.

Lemma comment_one fuel l rest : comment_line l -> comment (S fuel) (l ++ zb 10 :: rest) = rest.
Proof.
  intros [Hl He]. cbn [comment]. rewrite split_line_spec by exact Hl. cbn [rev app].
  destruct (rev l) as [|c r] eqn:E.
  - cbn [count_trailing_bs Nat.even]. reflexivity.
  - destruct (bz c =? 13); rewrite He; reflexivity.
Qed.

(** trivia: white space and whole comment lines *)
Inductive trivia : bytes -> Prop :=
| tr_nil : trivia []
| tr_ws c t : ascii_ws c = true -> trivia t -> trivia (c :: t)
| tr_comment l t : comment_line l -> trivia t -> trivia (zb 35 :: l ++ zb 10 :: t).

(** [space] with enough fuel removes any trivia in front of a token start *)
Lemma space_trivia t : trivia t -> forall s fuel, token_start s -> (length t < fuel)%nat -> space fuel (t ++ s) = s.
Proof.
  induction 1 as [|c t Hc Ht IH|l t Hl Ht IH]; intros s fuel Hs Hf.
  - destruct fuel; [lia|]. apply space_stop. exact Hs.
  - (* one white space character: the same call of [space] goes on trimming *)
    destruct fuel as [|fuel]; [lia|]. cbn [app space length].
    rewrite trim_start_ws by exact Hc.
    specialize (IH s (S fuel) Hs ltac:(cbn [length] in Hf; lia)). cbn [space] in IH. exact IH.
  - destruct fuel as [|fuel]; [lia|]. cbn [app space].
    rewrite trim_start_stop by reflexivity. change (bz (zb 35) =? 35) with true. cbn iota.
    rewrite <- app_assoc. cbn [app]. rewrite comment_one by exact Hl.
    apply IH; [exact Hs|]. cbn [length] in Hf. rewrite app_length in Hf. cbn [length] in Hf. lia.
Qed.

(** the token after trivia is the token without it, with the same rest and the same verdict *)
Theorem token_skips_trivia t s fuel : trivia t -> token_start s -> token fuel (t ++ s) = token fuel s.
Proof.
  intros Ht Hs. destruct fuel as [|fuel]; [reflexivity|]. cbn [token].
  rewrite (space_trivia t Ht s (S (length (t ++ s))) Hs ltac:(rewrite app_length; lia)).
  rewrite (space_stop (length s) s Hs). reflexivity.
Qed.

(** hence the same holds for the sequence of tokens that follows (inside a block as well): the same tokens, the same
    verdict, the same rest - or, when no token follows, the untouched input on both sides *)
Theorem tokens_skip_trivia t s fuel : trivia t -> token_start s ->
  let '(ts, r, ok) := tokens (S fuel) (t ++ s) in
  let '(ts', r', ok') := tokens (S fuel) s in
  ts = ts' /\ ok = ok' /\ (r = r' \/ (r = t ++ s /\ r' = s)).
Proof.
  intros Ht Hs. cbn [tokens]. rewrite (token_skips_trivia t s fuel Ht Hs). destruct (token fuel s) as [tk|].
  - destruct (tokens fuel (lx_rest tk)) as [[ts r] ok]. auto.
  - auto.
Qed.

Example trivia_ex : trivia (map zb [32; 35; 99; 32; 92; 92; 10; 9; 10]) /\ token_start (map zb [46; 97]).
Proof.
  split.
  - apply tr_ws; [reflexivity|]. apply (tr_comment (map zb [99; 32; 92; 92]) (map zb [9; 10])).
    + split; reflexivity.
    + repeat (apply tr_ws; [reflexivity|]). constructor.
  - cbn. split; [reflexivity|discriminate].
Qed.
