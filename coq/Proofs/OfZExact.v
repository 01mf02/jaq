(** [of_Z] is exact below 2^53: the integer is shifted up to a 53-bit mantissa and nothing is rounded off,
    so the bit pattern has a closed form, free of NaN and infinity, and its order key grows with the integer. *)
From Coq Require Import ZArith Lia.
From Coq Require Import Floats.SpecFloat.
From JaqV Require Import Base.F64 Proofs.F64Order.
Local Open Scope Z_scope.

Section Round.
  Variables prec emax : Z.

  Lemma digits2_log2 m : Zpos (digits2_pos m) = Z.succ (Z.log2 (Zpos m)).
  Proof.
    assert (E : forall p, digits2_pos p = Pos.size p) by (induction p; cbn; congruence).
    destruct m; cbn [digits2_pos Z.log2]; rewrite ?E, ?Pos2Z.inj_succ; reflexivity.
  Qed.

  (** a mantissa already in canonical position with an exact location goes through both shifts unchanged *)
  Lemma round_bounded s m e :
    bounded prec emax m e = true -> binary_round_aux prec emax s (Zpos m) e loc_Exact = S754_finite s m e.
  Proof.
    unfold bounded, canonical_mantissa. intros H. apply andb_prop in H as [C L]. apply Zeq_bool_eq in C.
    assert (S : shr_fexp prec emax (Zpos m) e loc_Exact = (Build_shr_record (Zpos m) false false, e)).
    { unfold shr_fexp, Zdigits2. rewrite C, Z.sub_diag. reflexivity. }
    unfold binary_round_aux. rewrite S. cbn [shr_m loc_of_shr_record round_nearest_even]. rewrite S. cbn [shr_m].
    rewrite L. reflexivity.
  Qed.

  (** when the target exponent is not above the given one the mantissa is only shifted left *)
  Lemma binary_round_exact s m e :
    let e' := fexp prec emax (Zpos (digits2_pos m) + e) in
    e' <= e -> e' <= emax - prec ->
    exists m', Zpos m' = Zpos m * 2 ^ (e - e') /\ binary_round prec emax s m e = S754_finite s m' e'.
  Proof.
    intros e' He Hm. unfold binary_round. fold e'.
    assert (A : exists m', Zpos m' = Zpos m * 2 ^ (e - e') /\ shl_align m e e' = (m', e')).
    { unfold shl_align. destruct (e' - e) as [|d|d] eqn:D; try lia.
      - exists m. replace e with e' by lia. rewrite Z.sub_diag, Z.mul_1_r. split; reflexivity.
      - exists (shift_pos d m). rewrite shift_pos_correct, Z.pow_pos_fold, Z.mul_comm. replace (e - e') with (Zpos d) by lia.
        split; reflexivity. }
    destruct A as (m' & Em & ->). exists m'. split; [exact Em|]. apply round_bounded.
    unfold bounded, canonical_mantissa. apply andb_true_intro. split; [apply Zeq_is_eq_bool|apply Zle_imp_le_bool; exact Hm].
    rewrite digits2_log2, Em, Z.log2_mul_pow2, <- Z.add_succ_r, <- digits2_log2 by lia.
    unfold e'. f_equal. lia.
  Qed.
End Round.

Lemma pattern_fields M N s e m : 0 <= e < N -> 0 <= m < M ->
  let h := s * (M * N) + e * M + m in
  h / (M * N) = s /\ (h / M) mod N = e /\ h mod M = m /\ 0 <= e * M + m < M * N.
Proof.
  intros He Hm h.
  assert (Q : h / M = s * N + e) by (symmetry; apply (Z.div_unique_pos h M (s * N + e) m Hm); unfold h; ring).
  repeat split; [| | |nia|nia].
  - rewrite <- Z.div_div, Q by lia. symmetry. apply (Z.div_unique_pos _ N s e He). ring.
  - rewrite Q. symmetry. apply (Z.mod_unique_pos _ N s e He). ring.
  - symmetry. apply (Z.mod_unique_pos h M (s * N + e) m Hm). unfold h. ring.
Qed.

Lemma fields_of_bits s e m : 0 <= e < 2048 -> 0 <= m < two52 ->
  let b := sign_bit s + (e * two52 + m) in f_exp b = e /\ f_man b = m.
Proof.
  intros He Hm b. destruct (pattern_fields two52 2048 (if s then 1 else 0) e m He Hm) as (_ & E & M & _).
  replace b with ((if s then 1 else 0) * (two52 * 2048) + e * two52 + m); [split; assumption|].
  unfold b, sign_bit. destruct s; [change two63 with (two52 * 2048)|]; ring.
Qed.

Lemma key_of_sign s x : 0 < x < two63 ->
  let b := sign_bit s + x in valid_bits b = true /\ nkey b = if s then -1 - x else x.
Proof.
  intros Hx b. unfold valid_bits, nkey, is_zero, total_key, pos_zero, neg_zero, b, sign_bit.
  change two64 with (2 * two63). generalize dependent two63. intros t63 Hx.
  destruct s; [destruct (Z.eqb_spec (t63 + x) 0), (Z.eqb_spec (t63 + x) t63), (Z.ltb_spec (t63 + x) t63)
              |destruct (Z.eqb_spec (0 + x) 0), (Z.eqb_spec (0 + x) t63), (Z.ltb_spec (0 + x) t63)];
    cbn [orb]; (split; [apply andb_true_intro; split; [apply Z.leb_le|apply Z.ltb_lt]|]; lia).
Qed.

Lemma normal_bits s e m : 0 < e < 2047 -> 0 <= m < two52 ->
  let x := e * two52 + m in let b := sign_bit s + x in
  nonan b /\ is_inf b = false /\ nkey b = if s then -1 - x else x.
Proof.
  intros He Hm x b. destruct (fields_of_bits s e m ltac:(lia) Hm) as [Ee _]. fold x b in Ee.
  assert (Nn : f_exp b =? 2047 = false) by (apply Z.eqb_neq; lia).
  assert (Hx : 0 < x < two63).
  { change two63 with (2048 * two52). pose proof (Z.mul_le_mono_nonneg_r 1 e two52 ltac:(discriminate)).
    pose proof (Z.mul_le_mono_nonneg_r e 2046 two52 ltac:(discriminate)). unfold x. lia. }
  destruct (key_of_sign s x Hx) as [V K]. unfold nonan, is_nan, is_inf. rewrite Nn. auto.
Qed.

(** the bits of the float of value [z], [0 < z < 2^53]: biased exponent [1023 + log2 z], [z] shifted up to bit 52 *)
Definition mag (z : Z) : Z := (1023 + Z.log2 z) * two52 + (z * 2 ^ (52 - Z.log2 z) - two52).

Lemma mantissa_range z : 0 < z -> Z.log2 z <= 52 -> two52 <= z * 2 ^ (52 - Z.log2 z) < 2 * two52.
Proof.
  intros Hz Hl. pose proof (Z.log2_spec z Hz) as [L U]. pose proof (Z.log2_nonneg z) as N. revert Hl L U N.
  generalize (Z.log2 z). intros l Hl L U N. rewrite Z.pow_succ_r in U by exact N.
  assert (P : 2 ^ l * 2 ^ (52 - l) = two52) by (rewrite <- Z.pow_add_r by lia; change two52 with (2 ^ 52); f_equal; lia).
  assert (0 < 2 ^ (52 - l)) by (apply Z.pow_pos_nonneg; lia).
  rewrite <- P. split; [apply Z.mul_le_mono_nonneg_r|rewrite Z.mul_assoc; apply Z.mul_lt_mono_pos_r]; lia.
Qed.

Lemma round_int s p : Z.log2 (Zpos p) <= 52 ->
  of_sf (binary_round prec emax s p 0) = sign_bit s + mag (Zpos p).
Proof.
  intros Hl. pose proof (Z.log2_nonneg (Zpos p)) as N.
  assert (E : fexp prec emax (Zpos (digits2_pos p) + 0) = Z.log2 (Zpos p) - 52).
  { unfold fexp, emin, prec, emax. rewrite digits2_log2. lia. }
  destruct (binary_round_exact prec emax s p 0) as (m' & Em & ->); rewrite E in *; [lia|unfold emax, prec; lia|].
  replace (0 - (Z.log2 (Zpos p) - 52)) with (52 - Z.log2 (Zpos p)) in Em by ring.
  pose proof (mantissa_range (Zpos p) eq_refl Hl) as R. unfold of_sf, mag. rewrite <- Em in *.
  destruct (Z.ltb_spec (Zpos m') two52); [lia|ring].
Qed.

Lemma log2_small z : Z.abs z < 2 ^ 53 -> Z.log2 (Z.abs z) <= 52.
Proof. intros H. destruct (Z.eq_dec z 0) as [->|N]; [discriminate|]. apply Z.log2_lt_pow2 in H; lia. Qed.

Theorem of_Z_exact z : z <> 0 -> Z.abs z < 2 ^ 53 -> of_Z z = sign_bit (z <? 0) + mag (Z.abs z).
Proof.
  intros Hz Hb. apply log2_small in Hb. unfold of_Z, binary_normalize.
  destruct z as [|p|p]; [congruence| |]; apply round_int; exact Hb.
Qed.

Lemma mag_range z : 0 < z -> Z.log2 z <= 52 -> (1023 + Z.log2 z) * two52 <= mag z < (1024 + Z.log2 z) * two52.
Proof. intros Hz Hl. pose proof (mantissa_range z Hz Hl). unfold mag. lia. Qed.

Lemma mag_pos z : 0 < z -> Z.log2 z <= 52 -> 0 < mag z.
Proof.
  intros Hz Hl. pose proof (mag_range z Hz Hl). pose proof (Z.log2_nonneg z).
  apply Z.lt_le_trans with ((1023 + Z.log2 z) * two52); [apply Z.mul_pos_pos|]; lia.
Qed.

(** within one binade the pattern is linear in [z]; a longer integer starts a higher binade *)
Lemma mag_mono a b : 0 < a < b -> Z.log2 b <= 52 -> mag a < mag b.
Proof.
  intros Hab Hb. pose proof (Z.log2_le_mono a b ltac:(lia)) as L.
  destruct (Z.eq_dec (Z.log2 a) (Z.log2 b)) as [E|N].
  - unfold mag. rewrite E. pose proof (Z.log2_nonneg b).
    assert (a * 2 ^ (52 - Z.log2 b) < b * 2 ^ (52 - Z.log2 b)); [|lia].
    apply Z.mul_lt_mono_pos_r; [apply Z.pow_pos_nonneg|]; lia.
  - pose proof (mag_range a ltac:(lia) ltac:(lia)). pose proof (mag_range b ltac:(lia) Hb).
    assert ((1024 + Z.log2 a) * two52 <= (1023 + Z.log2 b) * two52); [|lia].
    apply Z.mul_le_mono_nonneg_r; [discriminate|lia].
Qed.

Lemma of_Z_key z : z <> 0 -> Z.abs z < 2 ^ 53 ->
  nonan (of_Z z) /\ is_inf (of_Z z) = false /\ nkey (of_Z z) = if z <? 0 then -1 - mag (Z.abs z) else mag (Z.abs z).
Proof.
  intros Hz Hb. rewrite (of_Z_exact z Hz Hb). apply log2_small in Hb.
  pose proof (Z.log2_nonneg (Z.abs z)). pose proof (mantissa_range (Z.abs z) ltac:(lia) Hb).
  apply normal_bits; lia.
Qed.

Theorem of_Z_exact_nonan z : Z.abs z < 2 ^ 53 -> nonan (of_Z z) /\ is_inf (of_Z z) = false.
Proof.
  intros Hb. destruct (Z.eq_dec z 0) as [->|Hz]; [repeat split|]. destruct (of_Z_key z Hz Hb) as (N & I & _). auto.
Qed.

Theorem of_Z_key_mono a b : Z.abs a < 2 ^ 53 -> Z.abs b < 2 ^ 53 -> a < b -> nkey (of_Z a) < nkey (of_Z b).
Proof.
  assert (K : forall z, z <> 0 -> Z.abs z < 2 ^ 53 ->
            nkey (of_Z z) = (if z <? 0 then -1 - mag (Z.abs z) else mag (Z.abs z)) /\ 0 < mag (Z.abs z)).
  { intros z Hz Hb. destruct (of_Z_key z Hz Hb) as (_ & _ & ->). split; [reflexivity|].
    apply mag_pos; [lia|apply log2_small; exact Hb]. }
  intros Ha Hb Hab. pose proof (log2_small a Ha) as La. pose proof (log2_small b Hb) as Lb.
  destruct (Z.eq_dec a 0) as [->|Na], (Z.eq_dec b 0) as [->|Nb]; [lia| | |].
  - destruct (K b Nb Hb) as [-> P]. destruct (Z.ltb_spec b 0); [lia|exact P].
  - destruct (K a Na Ha) as [-> P]. destruct (Z.ltb_spec a 0); [change (nkey (of_Z 0)) with 0|]; lia.
  - destruct (K a Na Ha) as [-> Pa], (K b Nb Hb) as [-> Pb].
    destruct (Z.ltb_spec a 0), (Z.ltb_spec b 0); try lia.
    + pose proof (mag_mono (Z.abs b) (Z.abs a)). lia.
    + pose proof (mag_mono (Z.abs a) (Z.abs b)). lia.
Qed.
