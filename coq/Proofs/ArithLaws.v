(** The non-numeric cases of [+ - * / %]: the manual's equations, and "everything else is an error". *)
From Coq Require Import ZArith Bool List.
From JaqV Require Import Val.Num Val.Val Val.Err Val.Arith Proofs.StringLaws.
Import ListNotations.

Theorem add_null_neutral v : vadd Null v = Ok v /\ vadd v Null = Ok v.
Proof. destruct v; split; reflexivity. Qed.

Theorem add_concatenates :
  (forall a b, vadd (TStr a) (TStr b) = Ok (TStr (a ++ b))) /\ (forall a b, vadd (BStr a) (BStr b) = Ok (BStr (a ++ b)))
  /\ (forall a b, vadd (Arr a) (Arr b) = Ok (Arr (a ++ b))).
Proof. repeat split. Qed.

Definition equal (v w : val) : bool := match val_cmp v w with Eq => true | _ => false end.

Theorem array_minus a b : exists c, vsub (Arr a) (Arr b) = Ok (Arr c)
  /\ c = filter (fun v => negb (existsb (equal v) b)) a
  /\ (forall v, In v c <-> In v a /\ forall w, In w b -> equal v w = false).
Proof.
  eexists. split; [reflexivity|]. split; [reflexivity|]. intros v.
  rewrite filter_In, negb_true_iff, <- not_true_iff_false, existsb_exists. apply and_iff_compat_l. split.
  - intros N w Hw. apply not_true_iff_false. intros E. apply N. exists w. split; assumption.
  - intros A (w & Hw & E). exact (eq_true_false_abs _ E (A w Hw)).
Qed.

Theorem div_splits s sep : exists ps, vdiv (TStr s) (TStr sep) = Ok (Arr (map TStr ps)) /\ intercalate sep ps = s.
Proof. exists (split s sep). split; [reflexivity | apply split_join]. Qed.

Theorem div_splits_bytes s sep : exists ps, vdiv (BStr s) (BStr sep) = Ok (Arr (map BStr ps)) /\ intercalate sep ps = s.
Proof. exists (split s sep). split; [reflexivity | apply split_join]. Qed.

(** the shapes of operands that each operator accepts; everything else is an error *)
Definition add_shape (x y : val) : bool :=
  match x, y with
  | Null, _ | _, Null => true
  | Num _, Num _ | BStr _, BStr _ | TStr _, TStr _ | Arr _, Arr _ | Obj _, Obj _ => true
  | _, _ => false
  end.
Definition sub_shape (x y : val) : bool := match x, y with Num _, Num _ | Arr _, Arr _ => true | _, _ => false end.
Definition is_str (v : val) : bool := match v with TStr _ | BStr _ => true | _ => false end.
Definition is_intnum (v : val) : bool := match v with Num (Int _) | Num (Big _) => true | _ => false end.
Definition mul_shape (x y : val) : bool :=
  match x, y with
  | Num _, Num _ | Obj _, Obj _ => true
  | _, _ => (is_str x && is_intnum y) || (is_intnum x && is_str y)
  end.
Definition div_shape (x y : val) : bool := match x, y with Num _, Num _ | TStr _, TStr _ | BStr _, BStr _ => true | _, _ => false end.

Theorem operator_shapes x y :
  (if add_shape x y then exists v, vadd x y = Ok v else vadd x y = Err (EMath x Add y))
  /\ (if sub_shape x y then exists v, vsub x y = Ok v else vsub x y = Err (EMath x Sub y))
  /\ (if mul_shape x y then vmul x y <> Some (Err (EMath x Mul y)) else vmul x y = Some (Err (EMath x Mul y)))
  /\ (if div_shape x y then exists v, vdiv x y = Ok v else vdiv x y = Err (EMath x Div y))
  /\ (match x, y with
      | Num a, Num b => if is_int a && is_int b && num_eqb b (Int 0) then vrem x y = Err (EMath x Rem y)
                        else vrem x y = Ok (Num (Num.rem a b))
      | _, _ => vrem x y = Err (EMath x Rem y)
      end).
Proof.
  repeat split.
  1,2,4: destruct x, y; cbn; try (eexists; reflexivity); reflexivity.
  - destruct x as [| |[]| | | |], y as [| |[]| | | |]; cbn; try reflexivity; try discriminate;
      destruct (str_repeat _ _ _); discriminate.
  - destruct x, y; cbn; try reflexivity. destruct (is_int n && is_int n0 && num_eqb n0 (Int 0)); reflexivity.
Qed.

Example rem_by_zero : vrem (Num (Int 5)) (Num (Int 0)) = Err (EMath (Num (Int 5)) Rem (Num (Int 0))).
Proof. reflexivity. Qed.
