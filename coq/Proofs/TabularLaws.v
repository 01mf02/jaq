(** CSV and TSV: what [write_csv]/[write_tsv] write, [read_csv]/[read_tsv] read back - CSV for rows of scalars whose numbers
    are read back from their text ([row_ok]), TSV for every byte string. *)
From Coq Require Import ZArith Bool List Lia.
From Coq Require Import Init.Byte.
From JaqV Require Import Base.Bytes Val.Num Val.Val Json.Write Json.Read Fmts.Tabular Proofs.DigitLaws Proofs.DecodeLaws.
Import ListNotations.
Local Open Scope Z_scope.

Lemma bz_dquote : bz dquote = 34. Proof. reflexivity. Qed.
Lemma bz_bslash : bz bslash = 92. Proof. reflexivity. Qed.

Definition csv_plain (c : byte) : bool := negb ((bz c =? 44) || (bz c =? 10) || (bz c =? 13) || (bz c =? 34)).
Definition csv_esc1 (c : byte) : bytes := if bz c =? 34 then [dquote; dquote] else [c].

Lemma csv_go_plain t acc q fields rows rest :
  forallb csv_plain t = true ->
  csv_go false acc q fields rows (t ++ rest) = csv_go false (rev t ++ acc) q fields rows rest.
Proof.
  apply (copy_acc csv_plain (fun l a => csv_go false a q fields rows l)). intros c r a Hc.
  unfold csv_plain in Hc. rewrite negb_true_iff, !orb_false_iff in Hc. destruct Hc as [[[H44 H10] H13] H34].
  cbn [csv_go]. rewrite H44, H10, H13, H34. reflexivity.
Qed.

Definition not_quote_next (rest : bytes) : Prop := match rest with [] => True | c :: _ => (bz c =? 34) = false end.

(** inside quotes: a doubled quote is a quote, any other byte is itself *)
Lemma csv_quoted_step q fields rows c rest acc :
  csv_go true acc q fields rows (csv_esc1 c ++ rest) = csv_go true (c :: acc) q fields rows rest.
Proof.
  unfold csv_esc1. destruct (bz c =? 34) eqn:E; cbn [app csv_go].
  - apply Z.eqb_eq, eq_sym, zb_eq in E. subst c. reflexivity.
  - rewrite E. reflexivity.
Qed.

Lemma csv_go_quoted s acc q fields rows rest :
  not_quote_next rest ->
  csv_go true acc q fields rows (flat_map csv_esc1 s ++ dquote :: rest) = csv_go false (rev s ++ acc) q fields rows rest.
Proof.
  intros Hr. rewrite (decode_acc csv_esc1 (fun _ l a => csv_go true a q fields rows l) (fun c _ => csv_quoted_step q fields rows c) s 0).
  cbn [csv_go]. rewrite bz_dquote. cbn [Z.eqb Pos.eqb]. destruct rest as [|c2 r2]; [reflexivity|]. cbn in Hr. rewrite Hr. reflexivity.
Qed.

(** a number survives when its text is plain and parses back to it (shown for concrete numbers below; the printing and
    parsing of numbers is the subject of C07) *)
Definition num_rt (n : num) : Prop :=
  let t := show_num n in
  t <> [] /\ forallb csv_plain t = true /\ bytes_eqb t l_true = false /\ bytes_eqb t l_false = false
  /\ parse_single_num t = Some n.

Definition csv_ok (v : val) : Prop :=
  match v with Null | Bool _ | TStr _ => True | Num n => num_rt n | _ => False end.

Definition term (rest : bytes) : Prop := match rest with [] => True | c :: _ => bz c = 44 \/ bz c = 10 end.

Lemma term_not_quote rest : term rest -> not_quote_next rest.
Proof. destruct rest as [|c r]; cbn; [trivial|]. intros [H|H]; rewrite H; reflexivity. Qed.

Lemma csv_field v t :
  field_text csv_str v = Some t -> csv_ok v -> forall fields rows rest, term rest ->
  exists bs q, csv_go false [] false fields rows (t ++ rest) = csv_go false (rev bs) q fields rows rest
               /\ val_of_field bs q = v.
Proof.
  intros Ht Hok fields rows rest Hr. destruct v as [|b|n|s|s|a|o]; cbn in Hok; try contradiction; injection Ht as <-.
  - exists [], false. split; reflexivity.
  - exists (display (Bool b)), false. split; [|destruct b; reflexivity].
    rewrite csv_go_plain by (destruct b; reflexivity). rewrite app_nil_r. reflexivity.
  - change (display (Num n)) with (show_num n).
    destruct Hok as (Hne & Hpl & Htr & Hfa & Hp). exists (show_num n), false. split.
    + rewrite csv_go_plain by exact Hpl. rewrite app_nil_r. reflexivity.
    + unfold val_of_field. destruct (show_num n) as [|c t]; [congruence|]. rewrite Htr, Hfa, Hp. reflexivity.
  - exists s, true. split; [|reflexivity].
    unfold csv_str. fold csv_esc1. cbn [app csv_go]. rewrite bz_dquote. cbn [Z.eqb Pos.eqb].
    rewrite <- app_assoc. cbn [app]. rewrite csv_go_quoted by (apply term_not_quote; exact Hr). rewrite app_nil_r. reflexivity.
Qed.

Lemma fin_field_rev bs q : fin_field (rev bs) q = val_of_field bs q.
Proof. unfold fin_field. rewrite rev_involutive. reflexivity. Qed.

Lemma join_cons d x y r : join_fields d (x :: y :: r) = x ++ d :: join_fields d (y :: r).
Proof. reflexivity. Qed.

(** the fields of a row up to what ends the row: the last field is still open *)
Lemma csv_fields vs : forall ts fields rows tail,
  vs <> [] -> all_some (map (field_text csv_str) vs) = Some ts -> Forall csv_ok vs -> term tail ->
  exists bs q fields',
    csv_go false [] false fields rows (join_fields comma ts ++ tail) = csv_go false (rev bs) q fields' rows tail
    /\ rev (val_of_field bs q :: fields') = rev fields ++ vs.
Proof.
  induction vs as [|v vs IH]; intros ts fields rows tail Hne Hts Hok Htl; [congruence|].
  cbn [map all_some] in Hts. destruct (field_text csv_str v) as [t|] eqn:Ht; [|discriminate].
  destruct (all_some (map (field_text csv_str) vs)) as [ts'|] eqn:Hts'; [|discriminate].
  injection Hts as <-. inversion Hok as [|? ? Hv Hvs]; subst.
  destruct vs as [|v2 vs].
  - (* last field *) cbn in Hts'. injection Hts' as <-. cbn [join_fields].
    destruct (csv_field v t Ht Hv fields rows tail Htl) as (bs & q & Hgo & Hval).
    exists bs, q, fields. split; [exact Hgo|]. cbn [rev]. rewrite Hval. reflexivity.
  - destruct ts' as [|t2 ts']; [cbn in Hts'; destruct (field_text csv_str v2); [destruct (all_some _)|]; discriminate|].
    rewrite join_cons, <- app_assoc, <- app_comm_cons.
    destruct (csv_field v t Ht Hv fields rows (comma :: join_fields comma (t2 :: ts') ++ tail)) as (bs & q & Hgo & Hval);
      [left; reflexivity|].
    rewrite Hgo. cbn [csv_go]. change (bz comma =? 44) with true. cbn iota. rewrite fin_field_rev, Hval.
    destruct (IH (t2 :: ts') (v :: fields) rows tail) as (bs' & q' & fields' & Hgo' & Hrev);
      [discriminate|reflexivity|exact Hvs|exact Htl|].
    exists bs', q', fields'. split; [exact Hgo'|]. rewrite Hrev. cbn [rev]. rewrite <- app_assoc. reflexivity.
Qed.

Lemma csv_row vs ts fields rows rest :
  vs <> [] -> all_some (map (field_text csv_str) vs) = Some ts -> Forall csv_ok vs ->
  csv_go false [] false fields rows (join_fields comma ts ++ lf :: rest)
  = csv_go false [] false [] (Arr (rev fields ++ vs) :: rows) rest.
Proof.
  intros Hne Hts Hok.
  destruct (csv_fields vs ts fields rows (lf :: rest) Hne Hts Hok) as (bs & q & fields' & Hgo & Hrev); [right; reflexivity|].
  rewrite Hgo. cbn [csv_go]. change (bz lf =? 44) with false. change (bz lf =? 10) with true. cbn iota.
  rewrite fin_field_rev. unfold fin_row. rewrite Hrev. reflexivity.
Qed.

Definition row_ok (vs : list val) : Prop := vs <> [] /\ Forall csv_ok vs.

Lemma write_row_some d fs vs t :
  write_row d fs (Arr vs) = Some t -> exists ts, all_some (map (field_text fs) vs) = Some ts /\ t = join_fields d ts.
Proof.
  unfold write_row. destruct (all_some (map (field_text fs) vs)) as [ts|]; [|discriminate].
  intros H. injection H as <-. exists ts. split; reflexivity.
Qed.

Lemma csv_rows_acc rows texts : Forall row_ok rows -> Forall2 (fun vs t => write_csv (Arr vs) = Some t) rows texts ->
  forall racc, csv_go false [] false [] racc (flat_map (fun t => t ++ [lf]) texts) = rev racc ++ map Arr rows.
Proof.
  intros Hok H. induction H as [|vs t rows texts Hw H IH]; intros racc.
  - cbn. rewrite app_nil_r. reflexivity.
  - inversion Hok as [|? ? [Hne Hvs] Hoks]; subst. apply write_row_some in Hw as (ts & Hts & ->).
    cbn [flat_map]. rewrite <- !app_assoc. cbn [app].
    rewrite (csv_row vs ts [] racc _ Hne Hts Hvs). cbn [rev app]. rewrite (IH Hoks). cbn [rev map]. rewrite <- app_assoc. reflexivity.
Qed.

(** every document of line-feed-terminated rows *)
Theorem csv_roundtrip rows texts :
  Forall row_ok rows -> Forall2 (fun vs t => write_csv (Arr vs) = Some t) rows texts ->
  read_csv (flat_map (fun t => t ++ [lf]) texts) = map Arr rows.
Proof. intros Hok H. unfold read_csv. rewrite (csv_rows_acc rows texts Hok H []). reflexivity. Qed.

Lemma csv_eof fields acc q rows :
  (fields = [] -> acc = [] -> q = false -> False) ->
  csv_go false acc q fields rows [] = rev (fin_row (fin_field acc q :: fields) :: rows).
Proof.
  intros H. cbn [csv_go]. destruct fields; [|reflexivity]. destruct acc; [|reflexivity]. destruct q; [reflexivity|].
  exfalso. apply H; reflexivity.
Qed.

(** one row without a final line feed, as the filters [tocsv] and [@csv] write it; [[null]] is written as the empty text *)
Theorem csv_row_roundtrip vs t :
  row_ok vs -> vs <> [Null] -> write_csv (Arr vs) = Some t -> read_csv t = [Arr vs].
Proof.
  intros [Hne Hok] Hnn Hw. apply write_row_some in Hw as (ts & Hts & ->). unfold read_csv.
  destruct (csv_fields vs ts [] [] [] Hne Hts Hok I) as (bs & q & fields' & Hgo & Hrev). rewrite app_nil_r in Hgo.
  rewrite Hgo, csv_eof.
  - rewrite fin_field_rev. unfold fin_row. rewrite Hrev. reflexivity.
  - (* nothing read at all: the row was [[null]] *)
    intros -> Hb ->. apply Hnn. rewrite <- (rev_involutive bs), Hb in Hrev. symmetry. exact Hrev.
Qed.

Definition tsv_plain (c : byte) : bool :=
  negb ((bz c =? 9) || (bz c =? 10) || (bz c =? 13) || (bz c =? 92) || (bz c =? 0)).
Definition has_esc (s : bytes) : bool := existsb (fun c => negb (tsv_plain c)) s.

Lemma tsv_plain_true c : tsv_plain c = true ->
  (bz c =? 9) = false /\ (bz c =? 10) = false /\ (bz c =? 13) = false /\ (bz c =? 92) = false /\ (bz c =? 0) = false.
Proof. unfold tsv_plain. rewrite negb_true_iff, !orb_false_iff. tauto. Qed.

(** a byte is written as itself, or it is one of five and written as a backslash and a letter that is read back as it *)
Lemma tsv_esc1_cases c :
  (tsv_plain c = true /\ tsv_esc1 c = [c])
  \/ (tsv_plain c = false /\ exists e, tsv_esc1 c = [bslash; e] /\ tsv_unesc e = Some c /\ 48 <= bz e).
Proof.
  destruct (tsv_plain c) eqn:P; [left|right]; (split; [reflexivity|]).
  - apply tsv_plain_true in P as (H9 & H10 & H13 & H92 & H0). unfold tsv_esc1. rewrite H10, H13, H9, H92, H0. reflexivity.
  - unfold tsv_plain in P. rewrite negb_false_iff, !orb_true_iff, !Z.eqb_eq in P.
    destruct P as [[[[E|E]|E]|E]|E]; apply eq_sym, zb_eq in E; subst c; eexists; repeat split; discriminate.
Qed.

Lemma tsv_step c acc q fields rows rest :
  tsv_go acc q fields rows (tsv_esc1 c ++ rest) = tsv_go (c :: acc) (q || negb (tsv_plain c)) fields rows rest.
Proof.
  destruct (tsv_esc1_cases c) as [[P ->]|[P (e & -> & U & _)]]; rewrite P; cbn [app tsv_go negb].
  - apply tsv_plain_true in P as (H9 & H10 & H13 & H92 & _). rewrite H9, H10, H13, H92, orb_false_r. reflexivity.
  - rewrite bz_bslash. cbn [Z.eqb Pos.eqb]. rewrite U, orb_true_r. reflexivity.
Qed.

Lemma tsv_go_str s : forall acc q fields rows rest,
  tsv_go acc q fields rows (tsv_str s ++ rest) = tsv_go (rev s ++ acc) (q || has_esc s) fields rows rest.
Proof.
  induction s as [|c s IH]; intros acc q fields rows rest.
  - cbn. rewrite orb_false_r. reflexivity.
  - unfold tsv_str. cbn [flat_map]. fold (tsv_str s). rewrite <- app_assoc, tsv_step, IH.
    cbn [has_esc existsb rev]. rewrite <- app_assoc, orb_assoc. reflexivity.
Qed.

(** what comes back for a written string, whatever it is *)
Definition tsv_field_val (s : bytes) : val := val_of_field s (has_esc s).

Definition tsv_dom (s : bytes) : Prop :=
  s <> [] /\ bytes_eqb s l_true = false /\ bytes_eqb s l_false = false /\ parse_single_num s = None.

Lemma tsv_dom_val s : tsv_dom s -> tsv_field_val s = TStr s.
Proof.
  intros (Hne & Ht & Hf & Hp). unfold tsv_field_val, val_of_field. destruct (has_esc s); [reflexivity|].
  destruct s as [|c s]; [congruence|]. rewrite Ht, Hf, Hp. reflexivity.
Qed.

Lemma tsv_row r : forall fields rows rest, r <> [] ->
  tsv_go [] false fields rows (join_fields tab (map tsv_str r) ++ lf :: rest)
  = tsv_go [] false [] (Arr (rev fields ++ map tsv_field_val r) :: rows) rest.
Proof.
  induction r as [|s r IH]; intros fields rows rest Hne; [congruence|].
  destruct r as [|s2 r].
  - cbn [map join_fields]. rewrite tsv_go_str. cbn [tsv_go]. change (bz lf =? 9) with false. change (bz lf =? 10) with true.
    cbn iota. rewrite app_nil_r, fin_field_rev. cbn [orb]. unfold fin_row. cbn [rev]. reflexivity.
  - cbn [map]. rewrite join_cons. rewrite <- app_assoc. rewrite <- app_comm_cons. rewrite tsv_go_str.
    cbn [tsv_go]. change (bz tab =? 9) with true. cbn iota. rewrite app_nil_r, fin_field_rev. cbn [orb]. fold (tsv_field_val s).
    change (tsv_str s2 :: map tsv_str r) with (map tsv_str (s2 :: r)).
    rewrite (IH (tsv_field_val s :: fields) rows rest) by discriminate. cbn [rev map]. rewrite <- app_assoc. reflexivity.
Qed.

Lemma tsv_line r racc rest : r <> [] ->
  tsv_go [] false [] racc ((join_fields tab (map tsv_str r) ++ [lf]) ++ rest) = tsv_go [] false [] (Arr (map tsv_field_val r) :: racc) rest.
Proof. intros Hr. rewrite <- app_assoc. apply (tsv_row r [] racc rest Hr). Qed.

(** every document of rows of strings: each field comes back byte for byte, classified by [val_of_field] *)
Theorem tsv_roundtrip_bytes rows : Forall (fun r => r <> []) rows ->
  read_tsv (flat_map (fun r => join_fields tab (map tsv_str r) ++ [lf]) rows) = map (fun r => Arr (map tsv_field_val r)) rows.
Proof.
  intros H. unfold read_tsv. rewrite <- (app_nil_r (flat_map _ rows)).
  etransitivity.
  - exact (decode_acc_on _ _ (fun _ s acc => tsv_go [] false [] (map (fun r => Arr (map tsv_field_val r)) acc) s)
             (fun r Hr _ rest acc => tsv_line r _ rest Hr) rows H 0%nat [] []).
  - cbn [tsv_go]. rewrite app_nil_r, map_rev, rev_involutive. reflexivity.
Qed.

Lemma write_tsv_strs r : write_tsv (Arr (map TStr r)) = Some (join_fields tab (map tsv_str r)).
Proof.
  unfold write_tsv, write_row. rewrite map_map. cbn [field_text].
  assert (all_some (map (fun x => Some (tsv_str x)) r) = Some (map tsv_str r)) as ->; [|reflexivity].
  induction r as [|s r IH]; [reflexivity|]. cbn [map all_some]. rewrite IH. reflexivity.
Qed.

(** on the documented domain (non-empty strings that do not spell a number or boolean) the rows come back as they were *)
Theorem tsv_roundtrip rows texts :
  Forall (fun r => r <> [] /\ Forall tsv_dom r) rows ->
  Forall2 (fun r t => write_tsv (Arr (map TStr r)) = Some t) rows texts ->
  read_tsv (flat_map (fun t => t ++ [lf]) texts) = map (fun r => Arr (map TStr r)) rows.
Proof.
  intros Hok H.
  assert (texts = map (fun r => join_fields tab (map tsv_str r)) rows) as ->.
  { induction H as [|r t rows texts Hw H IH]; [reflexivity|]. inversion Hok; subst.
    rewrite write_tsv_strs in Hw. injection Hw as <-. cbn [map]. rewrite IH by assumption. reflexivity. }
  rewrite flat_map_concat_map, map_map, <- flat_map_concat_map.
  rewrite tsv_roundtrip_bytes.
  - apply map_ext_Forall. eapply Forall_impl; [|exact Hok]. intros r [_ Hd]. cbn beta. f_equal.
    apply map_ext_Forall. eapply Forall_impl; [|exact Hd]. intros s Hs. apply tsv_dom_val. exact Hs.
  - eapply Forall_impl; [|exact Hok]. intros r [Hne _]. exact Hne.
Qed.

(** a written TSV field contains no raw separator or line break, so any reader splits the line at the same places *)
Lemma tsv_str_no_sep s c : In c (tsv_str s) -> bz c <> 9 /\ bz c <> 10 /\ bz c <> 13 /\ bz c <> 0.
Proof.
  unfold tsv_str. rewrite in_flat_map. intros (x & _ & Hc).
  destruct (tsv_esc1_cases x) as [[P E]|[_ (e & E & _ & He)]]; rewrite E in Hc.
  - destruct Hc as [<-|[]]. apply tsv_plain_true in P. lia.
  - destruct Hc as [<-|[<-|[]]]; [rewrite bz_bslash|]; lia.
Qed.

(** the hypotheses are satisfiable: numbers, and a document with every kind of field *)
Example num_rt_int : num_rt (Int 5) /\ num_rt (Int (-12)) /\ num_rt (Big 123456789012345678901234567890).
Proof. unfold num_rt. vm_compute. repeat split; try reflexivity; discriminate. Qed.
(** a float is read back as the decimal literal that spells it: equal under [==], not the same representation *)
Example num_rt_dec : num_rt (Dec (lit [49; 46; 50; 48])) /\ parse_single_num (show_num (Flt 4609434218613702656)) = Some (Dec (lit [49; 46; 53])).
Proof. unfold num_rt. vm_compute. repeat split; try reflexivity; discriminate. Qed.
Example tsv_dom_ex : tsv_dom (lit [97; 98]) /\ tsv_dom (lit [49; 97]) /\ ~ tsv_dom (lit [49]).
Proof.
  unfold tsv_dom. split; [|split].
  - vm_compute. repeat split; try reflexivity; discriminate.
  - vm_compute. repeat split; try reflexivity; discriminate.
  - intros (_ & _ & _ & H). vm_compute in H. discriminate.
Qed.
Example csv_doc_ex :
  let r1 := [TStr (lit [97; 34; 44; 10]); Null; Bool true; Num (Int 5)] in
  let r2 := [Null] in
  exists t1 t2, write_csv (Arr r1) = Some t1 /\ write_csv (Arr r2) = Some t2
                /\ read_csv (t1 ++ [lf] ++ t2 ++ [lf]) = [Arr r1; Arr r2].
Proof. eexists. eexists. split; [reflexivity|]. split; [reflexivity|]. vm_compute. reflexivity. Qed.
