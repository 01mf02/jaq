(** The loader (Cli/Modules.v): its successful runs as a relation, and from it that a module reached by several
    routes is loaded once and that only files named by directives are read. *)
From Coq Require Import List Arith.
From JaqV Require Import Cli.Modules.
Import ListNotations.

Lemma index_of_none f l i : index_of f l i = None -> ~ In f l.
Proof.
  revert i; induction l as [|g r IH]; intros i H; cbn in *; [tauto|].
  destruct (Nat.eqb f g) eqn:E; [discriminate|]. apply Nat.eqb_neq in E.
  intros [Hg|Hr]; [congruence | exact (IH _ H Hr)].
Qed.

Lemma index_of_some f l i k : index_of f l i = Some k -> In f l.
Proof.
  revert i; induction l as [|g r IH]; intros i H; cbn in *; [discriminate|].
  destruct (Nat.eqb f g) eqn:E; [apply Nat.eqb_eq in E; left; congruence | right; eapply IH; eassumption].
Qed.

Lemma existsb_eqb f l : existsb (Nat.eqb f) l = true <-> In f l.
Proof.
  rewrite existsb_exists. split; [intros [x [Hx E]]; apply Nat.eqb_eq in E; subst x; exact Hx|].
  intros H. exists f. split; [exact H | apply Nat.eqb_refl].
Qed.

(** [runs fs o m ds m']: with the files [o] open, loading [ds] in order takes the loaded modules from [m] to [m'].
    The open files are an index and not part of a result because a successful run restores them.  A run of [find]
    is the case [ds = [f]], so that one (non-mutual) induction serves for both functions. *)
Inductive runs (fs : fsys) : list file -> list file -> list file -> list file -> Prop :=
| runs_nil o m : runs fs o m [] m
| runs_hit o m d r m' : In d m -> runs fs o m r m' -> runs fs o m (d :: r) m'
| runs_miss o m d ds m1 r m' : deps_of fs d = Some ds -> ~ In d m -> ~ In d o ->
    runs fs (d :: o) m ds m1 -> runs fs o (m1 ++ [d]) r m' -> runs fs o m (d :: r) m'.

Lemma load_all_runs fs n : forall ds st st', load_all (find n fs) st ds = inl st' ->
  l_open st' = l_open st /\ runs fs (l_open st) (l_mods st) ds (l_mods st').
Proof.
  induction n as [|n IHn]; induction ds as [|d r IHr]; intros st st' H; cbn [load_all] in H;
    try (injection H as <-; split; [reflexivity | apply runs_nil]);
    destruct (find _ fs st d) as [[i st1]|e] eqn:Ef; try discriminate.
  cbn [find] in Ef. destruct (deps_of fs d) as [ds|] eqn:Ed; [|discriminate].
  destruct (index_of d (l_mods st) 0) as [k|] eqn:Ei.
  { injection Ef as <- <-. destruct (IHr _ _ H) as [Ho Hr].
    split; [exact Ho | exact (runs_hit _ _ _ _ _ _ (index_of_some _ _ _ _ Ei) Hr)]. }
  destruct (existsb (Nat.eqb d) (l_open st)) eqn:Ex; [discriminate|].
  destruct (load_all (find n fs) _ ds) as [st2|e] eqn:El; [|discriminate]. injection Ef as <- <-.
  destruct (IHn _ _ _ El) as [_ Hr1]. destruct (IHr _ _ H) as [Ho2 Hr2]. split; [exact Ho2|].
  refine (runs_miss _ _ _ _ _ _ _ _ Ed (index_of_none _ _ _ Ei) _ Hr1 Hr2).
  rewrite <- existsb_eqb, Ex. discriminate.
Qed.

Lemma find_open fuel fs st f id st' : find fuel fs st f = inl (id, st') -> l_open st' = l_open st.
Proof. intros H. apply (load_all_runs fs fuel [f]). cbn [load_all]. rewrite H. reflexivity. Qed.

Lemma load_runs fs main_deps mods : load fs main_deps = inl mods -> runs fs [] [prelude_file] main_deps mods.
Proof.
  unfold load. destruct (load_all _ _ main_deps) as [st|e] eqn:E; [|discriminate]. intros H. injection H as <-.
  exact (proj2 (load_all_runs _ _ _ _ _ E)).
Qed.

Definition loaded_once (o m : list file) : Prop := NoDup m /\ (forall h, In h o -> ~ In h m).

Lemma nodup_snoc (l : list file) f : NoDup l -> ~ In f l -> NoDup (l ++ [f]).
Proof. intros Hn Hf. apply (NoDup_Add (Add_app f l [])). rewrite app_nil_r. split; assumption. Qed.

Lemma runs_loaded_once fs o m ds m' : runs fs o m ds m' -> loaded_once o m -> loaded_once o m'.
Proof.
  induction 1 as [| |o m d ds m1 r m' Hd Hm Ho ? IH1 ? IH2]; intros Hi; [exact Hi | apply IHruns, Hi |].
  destruct Hi as [Hn Hdis].
  (* [d] is open while its dependencies are loaded, so it is not among them when it is appended *)
  destruct IH1 as [Hn1 Hdis1]. { split; [exact Hn|]. intros h [<-|Hh]; [exact Hm | exact (Hdis h Hh)]. }
  apply IH2. split; [apply nodup_snoc; [exact Hn1 | apply Hdis1; left; reflexivity]|].
  intros h Hh Hin. apply in_app_or in Hin as [Hin|[<-|[]]]; [|exact (Ho Hh)]. apply (Hdis1 h); [right; exact Hh | exact Hin].
Qed.

Theorem load_once fs main_deps mods : load fs main_deps = inl mods -> NoDup mods.
Proof.
  intros H. apply (runs_loaded_once _ _ _ _ _ (load_runs _ _ _ H)).
  split; [constructor; [intros [] | constructor] | intros h []].
Qed.

Inductive reach (fs : fsys) (main_deps : list file) : file -> Prop :=
| reach_main d : In d main_deps -> reach fs main_deps d
| reach_dep f ds d : reach fs main_deps f -> deps_of fs f = Some ds -> In d ds -> reach fs main_deps d.

Lemma runs_named fs (P : file -> Prop) : (forall f ds d, P f -> deps_of fs f = Some ds -> In d ds -> P d) ->
  forall o m ds m', runs fs o m ds m' -> (forall d, In d ds -> P d) -> forall x, In x m' -> In x m \/ P x.
Proof.
  intros closed. induction 1 as [| |o m d ds m1 r m' Hd ? ? ? IH1 ? IH2]; intros HP x Hx; [left; exact Hx | |].
  - apply IHruns; [intros y Hy; apply HP; right; exact Hy | exact Hx].
  - assert (Pd : P d) by (apply HP; left; reflexivity).
    destruct (IH2 (fun y Hy => HP y (or_intror Hy)) x Hx) as [Hin|Px]; [|right; exact Px].
    apply in_app_or in Hin as [Hin|[<-|[]]]; [|right; exact Pd].
    apply IH1; [intros y Hy; exact (closed d ds y Pd Hd Hy) | exact Hin].
Qed.

Theorem loaded_files_are_named fs main_deps mods : load fs main_deps = inl mods ->
  forall m, In m mods -> m = prelude_file \/ reach fs main_deps m.
Proof.
  intros H m Hm.
  destruct (runs_named fs (reach fs main_deps) (reach_dep fs main_deps) _ _ _ _ (load_runs _ _ _ H) (reach_main fs main_deps) m Hm)
    as [[<-|[]]|Hr]; [left; reflexivity | right; exact Hr].
Qed.
