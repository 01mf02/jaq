(** C14, CBOR floats: a number written in the shortest of binary16 / binary32 that holds it exactly is read back as the
    very same binary64 pattern ([short_float] / [long_float] of Fmts/Cbor.v = `f16::from_f64`, `as f32`, `f64::from` of
    ciborium-ll's header layer) - zeros, sub-normal and normal numbers, infinities and quiet NaNs with their payload. *)
From Coq Require Import ZArith Lia.
From JaqV Require Import Base.F64 Fmts.Cbor Proofs.OfZExact.
Local Open Scope Z_scope.

Lemma f64_fields b : 0 <= b < two64 ->
  let s := if f_sign b then 1 else 0 in
  b = s * two63 + f_exp b * two52 + f_man b /\ 0 <= f_exp b < 2048 /\ 0 <= f_man b < two52 /\ (s = 0 \/ s = 1).
Proof.
  intros Hb. unfold f_sign, f_exp, f_man, two64, two63, two52 in *.
  destruct (Z.leb_spec 9223372036854775808 b); cbv zeta; Z.div_mod_to_equations; lia.
Qed.

(** [long_float] in terms of the fields; [w] is the width of the exponent *)
Lemma long_float_pattern bias mbits w s e m : 0 <= mbits -> 0 <= w -> 2 * bias + 2 = 2 ^ w -> 0 <= e < 2 ^ w -> 0 <= m < 2 ^ mbits ->
  long_float bias mbits (s * 2 ^ (mbits + w) + e * 2 ^ mbits + m)
  = if e =? 2 * bias + 1 then
      if m =? 0 then Some (s * two63 + 2047 * two52)
      else if m / 2 ^ (mbits - 1) =? 1 then Some (s * two63 + 2047 * two52 + m * 2 ^ (52 - mbits)) else None
    else if e =? 0 then
      if m =? 0 then Some (s * two63)
      else Some (s * two63 + (Z.log2 m + (1 - bias) - mbits + 1023) * two52 + (m - 2 ^ Z.log2 m) * 2 ^ (52 - Z.log2 m))
    else Some (s * two63 + (e - bias + 1023) * two52 + m * 2 ^ (52 - mbits)).
Proof.
  intros Hmb Hw0 Hw He Hm. unfold long_float. cbv zeta. replace (2 * bias + 1 + 1) with (2 ^ w) by lia.
  rewrite Z.log2_pow2, Z.pow_add_r by assumption.
  destruct (pattern_fields (2 ^ mbits) (2 ^ w) s e m He Hm) as (-> & -> & -> & _). reflexivity.
Qed.

Lemma some_inj (a b : Z) : Some a = Some b -> a = b.
Proof. intros [= E]. exact E. Qed.

(** the sub-normal numbers of a short format: [P = 2^sh], [Q = 2^(52-sh)] *)
Lemma subnormal_back m P Q x : 0 < P -> 0 < Q -> P * Q = two52 -> 0 <= m < two52 -> (two52 + m) mod P = 0 -> x = (two52 + m) / P ->
  Q <= x < 2 * Q /\ (x - Q) * P = m.
Proof.
  intros HP HQ E Hm Hd Hx.
  assert (D : two52 + m = P * x) by (subst x; pose proof (Z.div_mod (two52 + m) P ltac:(lia)); lia).
  split; [|nia]. split; nia.
Qed.

(** a format with exponent bias [2^(w-1) - 1] and [mbits] explicit mantissa bits: what [short_float] accepts, [long_float] gives back *)
Lemma short_back bias mbits w b h : 1 <= bias <= 1023 -> 1 <= mbits <= 52 -> 0 <= w -> 2 * bias + 2 = 2 ^ w -> 0 <= b < two64 ->
  short_float bias mbits b = Some h -> 0 <= h < 2 ^ (mbits + w + 1) /\ long_float bias mbits h = Some b.
Proof.
  intros Hbias Hmb Hw0 Hw Hb. destruct (f64_fields b Hb) as (Eb & He & Hm & Hs). cbv zeta in Eb.
  unfold short_float. cbv zeta.
  set (s := if f_sign b then 1 else 0) in *. set (e := f_exp b) in *. set (m := f_man b) in *. clearbody s e m. subst b.
  replace (2 * bias + 1 + 1) with (2 ^ w) by lia. rewrite Z.log2_pow2 by exact Hw0.
  set (M := 2 ^ mbits). set (D := 2 ^ (52 - mbits)). set (T := 2 ^ (mbits + w)).
  assert (HM : 0 < M) by (apply Z.pow_pos_nonneg; lia). assert (HD : 0 < D) by (apply Z.pow_pos_nonneg; lia).
  assert (MD : M * D = two52) by (unfold M, D; rewrite <- Z.pow_add_r by lia; replace (mbits + (52 - mbits)) with 52 by lia; reflexivity).
  (* a pattern put together from fields within their ranges is in range, and [long_float] sees the fields *)
  assert (B : forall ef mf, 0 <= ef < 2 ^ w -> 0 <= mf < M -> 0 <= s * T + ef * M + mf < 2 ^ (mbits + w + 1)).
  { intros ef mf Hef Hmf. destruct (pattern_fields M (2 ^ w) s ef mf Hef Hmf) as (_ & _ & _ & R).
    rewrite (Z.pow_add_r 2 (mbits + w) 1), (Z.pow_add_r 2 mbits w) by lia. fold M. unfold T. rewrite (Z.pow_add_r 2 mbits w) by lia. fold M.
    change (2 ^ 1) with 2. destruct Hs; subst s; lia. }
  pose proof (fun ef mf => long_float_pattern bias mbits w s ef mf ltac:(lia) Hw0 Hw) as LP. fold M T in LP.
  assert (DM : m mod D = 0 -> 0 <= m / D < M /\ m / D * D = m).
  { intros M1. split; [split; [apply Z.div_pos; lia|apply Z.div_lt_upper_bound; lia]|].
    pose proof (Z.div_mod m D ltac:(lia)). lia. }
  destruct (Z.eqb_spec e 2047) as [E1|E1].
  { destruct (Z.eqb_spec m 0) as [M0|M0].
    - intros Eh. apply some_inj in Eh. subst h. replace (s * T + (2 * bias + 1) * M) with (s * T + (2 * bias + 1) * M + 0) by ring.
      split; [apply B; lia|]. rewrite LP, Z.eqb_refl by lia. cbn [Z.eqb]. subst e m. f_equal. ring.
    - destruct (Z.eqb_spec (m mod D) 0) as [M1|M1]; [|discriminate].
      destruct (Z.eqb_spec (m / 2 ^ 51) 1) as [M2|M2]; [|discriminate].
      cbn [andb]. intros Eh. apply some_inj in Eh. subst h. destruct (DM M1) as [R X].
      split; [apply B; lia|]. rewrite LP, Z.eqb_refl by lia.
      assert (A4 : m / D / 2 ^ (mbits - 1) = 1).
      { rewrite Z.div_div by (try apply Z.pow_pos_nonneg; lia). unfold D. rewrite <- Z.pow_add_r by lia.
        replace (52 - mbits + (mbits - 1)) with 51 by lia. exact M2. }
      destruct (Z.eqb_spec (m / D) 0) as [Z0|_]; [rewrite Z0 in A4; discriminate|].
      rewrite A4. cbn [Z.eqb Pos.eqb]. fold D. rewrite X. subst e. reflexivity. }
  destruct (Z.eqb_spec e 0) as [E0|E0].
  { destruct (Z.eqb_spec m 0) as [M0|M0]; [|discriminate]. intros Eh. apply some_inj in Eh. subst h.
    replace (s * T) with (s * T + 0 * M + 0) by ring. split; [apply B; lia|]. rewrite LP by lia.
    destruct (Z.eqb_spec 0 (2 * bias + 1)); [lia|]. cbn [Z.eqb]. subst e m. f_equal. ring. }
  destruct (Z.leb_spec (1 - bias) (e - 1023)) as [L1|L1]; cbn [andb].
  - (* normal *)
    destruct (Z.leb_spec (e - 1023) bias) as [L2|L2]; [|destruct (Z.ltb_spec (e - 1023) (1 - bias)); [lia|discriminate]].
    destruct (Z.eqb_spec (m mod D) 0) as [M1|M1]; [|discriminate]. intros Eh. apply some_inj in Eh. subst h. destruct (DM M1) as [R X].
    split; [apply B; lia|]. rewrite LP by lia.
    destruct (Z.eqb_spec (e - 1023 + bias) (2 * bias + 1)); [lia|]. destruct (Z.eqb_spec (e - 1023 + bias) 0); [lia|].
    fold D. rewrite X. f_equal. ring.
  - (* sub-normal *)
    destruct (Z.ltb_spec (e - 1023) (1 - bias)) as [_|]; [|lia].
    set (sh := 52 - mbits + (1 - bias) - (e - 1023)).
    destruct (Z.eqb_spec ((two52 + m) mod 2 ^ sh) 0) as [M1|M1]; [|discriminate]. intros Eh. apply some_inj in Eh. subst h.
    assert (Hsh : 52 - mbits < sh) by (unfold sh; lia).
    assert (Hsh2 : sh <= 52).
    { destruct (Z.le_gt_cases sh 52) as [|G]; [assumption|exfalso].
      assert (2 ^ 53 <= 2 ^ sh) by (apply Z.pow_le_mono_r; lia). unfold two52 in *. change (2 ^ 53) with 9007199254740992 in *.
      rewrite Z.mod_small in M1 by lia. lia. }
    set (P := 2 ^ sh) in *. set (Q := 2 ^ (52 - sh)).
    assert (PQ : P * Q = two52). { unfold P, Q. rewrite <- Z.pow_add_r by lia. replace (sh + (52 - sh)) with 52 by lia. reflexivity. }
    assert (HP : 0 < P) by (apply Z.pow_pos_nonneg; lia). assert (HQ : 0 < Q) by (apply Z.pow_pos_nonneg; lia).
    set (x := (two52 + m) / P) in *.
    destruct (subnormal_back m P Q x HP HQ PQ Hm M1 eq_refl) as ((X1 & X2) & X3).
    assert (QB : 2 * Q <= M).
    { unfold Q, M. rewrite <- Z.pow_succ_r by lia. apply Z.pow_le_mono_r; lia. }
    clearbody x. replace (s * T + x) with (s * T + 0 * M + x) by ring. split; [apply B; lia|]. rewrite LP by lia.
    destruct (Z.eqb_spec 0 (2 * bias + 1)); [lia|]. cbn [Z.eqb]. destruct (Z.eqb_spec x 0); [lia|].
    assert (LG : Z.log2 x = 52 - sh).
    { apply Z.log2_unique; [lia|]. fold Q. replace (52 - sh + 1) with (Z.succ (52 - sh)) by lia. rewrite Z.pow_succ_r by lia. fold Q. lia. }
    rewrite LG. fold Q. replace (52 - (52 - sh)) with sh by lia. fold P.
    f_equal. rewrite X3. unfold sh. ring.
Qed.

Lemma half_back b h : 0 <= b < two64 -> short_float 15 10 b = Some h -> 0 <= h < 65536 /\ long_float 15 10 h = Some b.
Proof. apply (short_back 15 10 5); [lia|lia|lia|reflexivity]. Qed.

Lemma single_back b h : 0 <= b < two64 -> short_float 127 23 b = Some h -> 0 <= h < 4294967296 /\ long_float 127 23 h = Some b.
Proof. apply (short_back 127 23 8); [lia|lia|lia|reflexivity]. Qed.

Lemma short_floats_exact b h : 0 <= b < two64 ->
  (short_float 15 10 b = Some h -> 0 <= h < 65536 /\ long_float 15 10 h = Some b) /\
  (short_float 127 23 b = Some h -> 0 <= h < 4294967296 /\ long_float 127 23 h = Some b).
Proof. intros Hb. split; [apply half_back|apply single_back]; exact Hb. Qed.

(** non-vacuity: 1.5 fits binary16, 100000.0 binary32 only, 0.1 neither; the smallest sub-normal of binary16 *)
Example short_float_examples :
  short_float 15 10 4609434218613702656 = Some 15872 /\ short_float 15 10 4681608360884174848 = None
  /\ short_float 127 23 4681608360884174848 = Some 1203982336 /\ short_float 127 23 4591870180066957722 = None
  /\ short_float 15 10 4499096027743125504 = Some 1.
Proof. vm_compute. repeat split. Qed.
