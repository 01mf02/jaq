(** C12: `indices($x)` lists exactly the positions i with `.[i:][:$x|length] == $x` - for arrays searched for a
    sub-array ([window_indices], Val/Index.v), for byte strings searched for a byte string ([byte_windows], Std/Natives.v)
    and for arrays searched for an element: in increasing order, each position once, overlapping occurrences included,
    nothing else; an empty needle yields nothing.  [firstn n (skipn k x)] is what `.[k:][:n]` reads for 0 <= k
    (Props/C10.v, clipped slices). *)
From Coq Require Import List ZArith Lia Bool Sorting.Sorted.
From JaqV Require Import Base.Bytes Val.Val Val.Err Val.Arith Val.Index Std.Natives Proofs.TrimLaws.
Import ListNotations.

(** ** the numbers below [n] that pass a test, as offsets from [i] *)
Definition zpos (p : nat -> bool) (n : nat) (i : Z) : list Z :=
  map (fun k => (i + Z.of_nat k)%Z) (filter p (seq 0 n)).

Lemma filter_seq_shift (p : nat -> bool) : forall n s,
  filter p (seq (S s) n) = map S (filter (fun k => p (S k)) (seq s n)).
Proof.
  induction n as [|n IH]; intros s; cbn [seq filter map]; [reflexivity|].
  rewrite IH. destruct (p (S s)); reflexivity.
Qed.

Lemma zpos_S p n i : zpos p (S n) i = (if p 0%nat then [i] else []) ++ zpos (fun k => p (S k)) n (i + 1).
Proof.
  unfold zpos. change (seq 0 (S n)) with (0%nat :: seq 1 n). cbn [filter]. rewrite filter_seq_shift.
  assert (E : forall l, map (fun k => (i + Z.of_nat k)%Z) (map S l) = map (fun k => (i + 1 + Z.of_nat k)%Z) l)
    by (intros l; rewrite map_map; apply map_ext; intros; lia).
  destruct (p 0%nat); cbn [map app]; rewrite E; [rewrite Z.add_0_r|]; reflexivity.
Qed.

Lemma filter_none {A} (p : A -> bool) l : (forall a, In a l -> p a = false) -> filter p l = [].
Proof.
  induction l as [|a l IH]; intros H; cbn; [reflexivity|].
  rewrite (H a (or_introl eq_refl)). apply IH. intros b Hb. apply H. right. exact Hb.
Qed.

Lemma in_zpos p n k : In (Z.of_nat k) (zpos p n 0) <-> (k < n)%nat /\ p k = true.
Proof.
  unfold zpos. rewrite in_map_iff. split.
  - intros [k' [E Hin]]. assert (k' = k) by lia. subst k'. apply filter_In in Hin as [Hin Hp]. apply in_seq in Hin. split; [lia|exact Hp].
  - intros [Hk Hp]. exists k. split; [lia|]. apply filter_In. split; [apply in_seq; lia|exact Hp].
Qed.

Lemma zpos_nonneg p n z : In z (zpos p n 0) -> exists k, z = Z.of_nat k.
Proof. unfold zpos. rewrite in_map_iff. intros [k [E _]]. exists k. lia. Qed.

Lemma sorted_filter_seq (p : nat -> bool) : forall n s, StronglySorted lt (filter p (seq s n)).
Proof.
  induction n as [|n IH]; intros s; cbn [seq filter]; [constructor|].
  destruct (p s); [|apply IH]. constructor; [apply IH|].
  apply Forall_forall. intros k Hk. apply filter_In in Hk. destruct Hk as [Hk _]. apply in_seq in Hk. lia.
Qed.

Lemma sorted_map_pos (l : list nat) i : StronglySorted lt l -> StronglySorted Z.lt (map (fun k => (i + Z.of_nat k)%Z) l).
Proof.
  induction 1 as [|a l Hs IH Hall]; cbn [map]; constructor; [exact IH|].
  apply Forall_forall. intros z Hz. apply in_map_iff in Hz. destruct Hz as [k [E Hk]]. subst z.
  rewrite Forall_forall in Hall. specialize (Hall k Hk). lia.
Qed.

Lemma zpos_increasing p n i : StronglySorted Z.lt (zpos p n i).
Proof. apply sorted_map_pos. apply sorted_filter_seq. Qed.

(** the window of [x] at position [k] exists and equals [y] *)
Definition window_at {A} (eqb : list A -> list A -> bool) (x y : list A) (k : nat) : bool :=
  (k + length y <=? length x)%nat && eqb (firstn (length y) (skipn k x)) y.

(** the positions of all windows, as offsets from [i] *)
Definition positions {A} (eqb : list A -> list A -> bool) (x y : list A) (i : Z) : list Z :=
  zpos (window_at eqb x y) (S (length x)) i.

Lemma positions_short {A} (eqb : list A -> list A -> bool) (x y : list A) i :
  (length x < length y)%nat -> positions eqb x y i = [].
Proof.
  intros H. unfold positions, zpos. rewrite filter_none; [reflexivity|].
  intros k _. unfold window_at. destruct (Nat.leb_spec (k + length y) (length x)); [lia|reflexivity].
Qed.

Lemma positions_cons {A} (eqb : list A -> list A -> bool) a r (y : list A) i :
  positions eqb (a :: r) y i
  = (if window_at eqb (a :: r) y 0 then [i] else []) ++ positions eqb r y (i + 1).
Proof.
  unfold positions. cbn [length]. rewrite zpos_S.
  (* the window of a :: r at S k is that of r at k, by conversion *) reflexivity.
Qed.

(** a search that walks along [x], testing the window at the front in whatever way, returns the positions *)
Section WINDOWS.
  Context {A : Type} (eqb test : list A -> list A -> bool) (go : list A -> list A -> Z -> nat -> list Z).
  Hypothesis go_S : forall x y i fuel, go x y i (S fuel) =
    if (length x <? length y)%nat then []
    else (if test x y then [i] else []) ++ match x with [] => [] | _ :: r => go r y (i + 1) fuel end.
  Hypothesis test_front : forall x y, test x y = eqb (firstn (length y) x) y.

  Lemma windows_positions : forall fuel x y i, (length x < fuel)%nat -> go x y i fuel = positions eqb x y i.
  Proof.
    induction fuel as [|fuel IH]; intros x y i Hf; [lia|]. rewrite go_S.
    destruct (Nat.ltb_spec (length x) (length y)) as [Hs|Hs]; [rewrite positions_short by exact Hs; reflexivity|].
    rewrite test_front. destruct x as [|a r].
    - destruct y as [|b y]; [|cbn [length] in Hs; lia]. unfold positions. rewrite zpos_S. reflexivity.
    - rewrite positions_cons, IH by (cbn [length] in Hf; lia).
      unfold window_at at 1. cbn [Nat.add skipn].
      destruct (Nat.leb_spec (length y) (length (a :: r))) as [_|Hc]; [|lia]. reflexivity.
  Qed.
End WINDOWS.

Lemma window_indices_positions fuel x y i : (length x < fuel)%nat ->
  window_indices x y i fuel = positions list_eqb_val x y i.
Proof.
  apply (windows_positions list_eqb_val (fun x y => list_eqb_val (firstn (length y) x) y)); [|reflexivity].
  intros [|] *; reflexivity.
Qed.

Definition prefix_eqb (w y : bytes) : bool := bytes_eqb w y.

Lemma byte_windows_positions fuel (x y : bytes) i : (length x < fuel)%nat ->
  byte_windows x y i fuel = positions bytes_eqb x y i.
Proof.
  apply (windows_positions bytes_eqb (fun x y => is_prefix y x)); [intros [|] *; reflexivity|]. intros. apply is_prefix_firstn.
Qed.

(** what the list of positions is: exactly the matching positions, increasing *)
Definition lists_exactly {A} (eqb : list A -> list A -> bool) (x y : list A) (ps : list Z) : Prop :=
  StronglySorted Z.lt ps
  /\ (forall z, In z ps -> exists k, z = Z.of_nat k)
  /\ forall k, In (Z.of_nat k) ps <->
       (k + length y <= length x)%nat /\ eqb (firstn (length y) (skipn k x)) y = true.

Lemma positions_exact {A} (eqb : list A -> list A -> bool) (x y : list A) : lists_exactly eqb x y (positions eqb x y 0).
Proof.
  split; [apply zpos_increasing|]. split; [apply zpos_nonneg|]. intros k.
  unfold positions. rewrite in_zpos. unfold window_at. rewrite andb_true_iff, Nat.leb_le. intuition lia.
Qed.

Theorem indices_arrays_spec x y : y <> [] ->
  exists ps, indices (Arr x) (Arr y) = Ok (Arr (map vint ps)) /\ lists_exactly list_eqb_val x y ps.
Proof.
  intros Hy. exists (positions list_eqb_val x y 0). split; [|apply positions_exact].
  destruct y as [|b y]; [congruence|]. cbn [indices]. rewrite window_indices_positions by lia. reflexivity.
Qed.

Theorem indices_bytes_spec (x y : bytes) : y <> [] ->
  exists ps, indices (BStr x) (BStr y) = Ok (Arr (map vint ps)) /\ lists_exactly bytes_eqb x y ps.
Proof.
  intros Hy. exists (positions bytes_eqb x y 0). split; [|apply positions_exact].
  destruct y as [|b y]; [congruence|]. cbn [indices]. rewrite byte_windows_positions by lia. reflexivity.
Qed.

Theorem indices_empty_needle x b :
  indices (Arr x) (Arr []) = Ok (Arr []) /\ indices (BStr b) (BStr []) = Ok (Arr []) /\ indices (TStr b) (TStr []) = Ok (Arr []).
Proof. repeat split. Qed.

(** an array searched for something that is not an array: the positions of the elements equal to it *)
Lemma enumerate_filter (y : val) : forall a i,
  map fst (filter (fun p => val_eqb (snd p) y) (enumerate_from i a))
  = zpos (fun k => match nth_error a k with Some e => val_eqb e y | None => false end) (length a) i.
Proof.
  induction a as [|e a IH]; intros i; [reflexivity|].
  cbn [enumerate_from length filter snd]. rewrite zpos_S. cbn [nth_error].
  destruct (val_eqb e y); cbn [map fst app]; rewrite IH; reflexivity.
Qed.

Theorem indices_element a y : (forall l, y <> Arr l) ->
  indices (Arr a) y = Ok (Arr (map vint (map (fun k => Z.of_nat k)
     (filter (fun k => match nth_error a k with Some e => val_eqb e y | None => false end) (seq 0 (length a)))))).
Proof.
  intros Hy. destruct y; try (exfalso; eapply Hy; reflexivity); cbn [indices];
    rewrite <- (map_map fst vint), enumerate_filter; do 3 f_equal; apply map_ext; intros; lia.
Qed.

(** non-vacuity: overlapping occurrences are all listed *)
Example indices_overlap :
  indices (Arr [vint 1; vint 1; vint 1; vint 2]) (Arr [vint 1; vint 1]) = Ok (Arr [vint 0; vint 1]).
Proof. vm_compute. reflexivity. Qed.
