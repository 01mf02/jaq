(** The frame of the proofs of compiler correctness (Proofs/CompileCorrect.v and, for larger fragments, CompileDefs.v,
    CompileParams.v, CompileClosures.v).  First one step of the compiler ([c_term]) and of the interpreter ([run]) on each
    construct, as equations, and the table of definitions.  Then the abstract simulation [sim] that each proof instantiates
    with its named semantics and invariant, what it is to prove of a term ([compiles M b Q n t]), and that statement for
    each construct the fragments share ([compiles_id] ... [compiles_parts_cons]); for calls and definitions the step of
    the semantics is left to the instance. *)
From Coq Require Import ZArith Bool List Lia Wf_nat.
From JaqV Require Import Base.Bytes Base.Stream Val.Num Val.Val Val.Err Val.Arith Val.Index Core.Syntax Core.Compile Core.Natives Core.Run
  Proofs.MonadLaws.
From JaqV Require Proofs.GetpathLaws.
Import ListNotations.

Notation sforall := GetpathLaws.sforall.
Lemma sbind_ext_on {A B} (P : A -> Prop) (s : str A) (f f' : A -> str B) :
  sforall P s -> (forall x, P x -> f x = f' x) -> sbind s f = sbind s f'.
Proof.
  induction s as [|x k IH|e| |]; cbn; intros H E; try reflexivity. destruct H as [H1 H2]. rewrite (E x H1).
  apply sapp_ext. apply IH; assumption.
Qed.

(* strong induction up to [F]; with [refine], since [apply] does not infer [P] *)
Lemma below_ind (P : nat -> Prop) F : (forall n, (n <= F)%nat -> (forall m, (m < n)%nat -> P m) -> P n) -> forall n, (n <= F)%nat -> P n.
Proof. intros H n. induction n as [n IH] using lt_wf_ind. intros Hn. apply H; [exact Hn|]. intros m Hm. apply IH; [exact Hm|lia]. Qed.

Lemma set_nth_length A i (a : A) l : length (set_nth i a l) = length l.
Proof. revert i; induction l as [|x l IH]; intros [|i]; cbn; auto. Qed.
Lemma set_nth_same A i (a : A) l : (i < length l)%nat -> nth_error (set_nth i a l) i = Some a.
Proof. revert i; induction l as [|x l IH]; intros [|i] H; cbn in *; try lia; [reflexivity|apply IH; lia]. Qed.
Lemma set_nth_other A i j (a : A) l : i <> j -> nth_error (set_nth i a l) j = nth_error l j.
Proof. revert i j; induction l as [|x l IH]; intros [|i] [|j] H; cbn; try reflexivity; try congruence. apply IH. congruence. Qed.

Lemma map_fst_combine {A B} (l : list A) : forall (r : list B), length l = length r -> map fst (combine l r) = l.
Proof. induction l as [|a l IH]; intros [|b r] H; cbn in *; try congruence. f_equal. apply IH. congruence. Qed.
Lemma map_snd_combine {A B} (l : list A) : forall (r : list B), length l = length r -> map snd (combine l r) = r.
Proof. induction l as [|a l IH]; intros [|b r] H; cbn in *; try congruence. f_equal. apply IH. congruence. Qed.

Lemma cbind_eqb_refl x : cbind_eqb x x = true.
Proof. destruct x; cbn; destruct (bytes_eqb_spec x x); congruence. Qed.
Lemma cbind_eqb_eq x y : cbind_eqb x y = true -> x = y.
Proof. destruct x, y; cbn; try discriminate; intros H; destruct (bytes_eqb_spec x x0); congruence. Qed.

Lemma index_of_offset x vs : forall i n, index_of x vs (i + n) = option_map (fun k => (k + n)%nat) (index_of x vs i).
Proof.
  induction vs as [|y vs IH]; intros i n; cbn [index_of]; [reflexivity|]. destruct (cbind_eqb x y); [reflexivity|].
  change (S (i + n)) with (S i + n)%nat. apply IH.
Qed.
Lemma index_of_cons x y l : index_of x (y :: l) 0 = if cbind_eqb x y then Some 0%nat else option_map S (index_of x l 0).
Proof.
  cbn [index_of]. destruct (cbind_eqb x y); [reflexivity|]. change 1%nat with (0 + 1)%nat. rewrite index_of_offset.
  destruct (index_of x l 0); cbn [option_map]; [rewrite Nat.add_1_r|]; reflexivity.
Qed.
Lemma index_of_skip x l vs : ~ In x l -> index_of x (l ++ vs) 0 = option_map (fun k => (k + length l)%nat) (index_of x vs 0).
Proof.
  intros H. rewrite <- (index_of_offset x vs 0 (length l)). generalize 0%nat.
  induction l as [|y l IH]; intros i; cbn [app length index_of]; [rewrite Nat.add_0_r; reflexivity|].
  destruct (cbind_eqb x y) eqn:E; [apply cbind_eqb_eq in E; exfalso; apply H; left; auto|].
  rewrite IH by (intros K; apply H; right; exact K). f_equal. lia.
Qed.
Lemma index_behind_prefix x l vs : index_of x vs 0 <> None -> index_of x (l ++ vs) 0 <> None.
Proof.
  intros H. induction l as [|y l IH]; [exact H|]. cbn [app]. rewrite index_of_cons. destruct (cbind_eqb x y); [discriminate|].
  destruct (index_of x (l ++ vs) 0); [discriminate|exact IH].
Qed.
Lemma index_in_prefix x l vs : In x l -> index_of x (l ++ vs) 0 <> None.
Proof.
  induction l as [|y l IH]; intros H; [destruct H|]. cbn [app]. rewrite index_of_cons. destruct (cbind_eqb x y) eqn:E; [discriminate|].
  destruct H as [->|H]; [rewrite cbind_eqb_refl in E; discriminate|]. specialize (IH H). destruct (index_of x (l ++ vs) 0); [discriminate|exact IH].
Qed.

Definition in_scope (b : list cbind) (e : env) : Prop := forall x, In x b -> index_of x (e_vars e) 0 <> None.
Lemma in_scope_app l b e e' : e_vars e' = l ++ e_vars e -> in_scope b e -> in_scope (l ++ b) e'.
Proof.
  intros E H x Hx. rewrite E. apply in_app_or in Hx as [Hx|Hx]; [apply index_in_prefix; exact Hx|apply index_behind_prefix; apply H; exact Hx].
Qed.
Lemma in_scope_push b e x : in_scope b e -> in_scope (x :: b) (push_var x e).
Proof. apply (in_scope_app [x]). reflexivity. Qed.

Definition defined (fs : list (bytes * nat)) (fes : list fentry) : Prop :=
  forall f ar, In (f, ar) fs -> exists fe, find_fun f ar fes = Some fe.
Lemma defined_push fs fes fe f ar : f_name fe = f -> f_arity fe = ar -> defined fs fes -> defined ((f, ar) :: fs) (fe :: fes).
Proof.
  intros <- <- H f' ar' Hin. cbn [find_fun]. destruct (bytes_eqb f' (f_name fe) && Nat.eqb ar' (f_arity fe)) eqn:E; [eauto|].
  destruct Hin as [Q|Hin]; [|apply H; exact Hin]. injection Q as <- <-. rewrite Nat.eqb_refl, andb_true_r in E.
  destruct (bytes_eqb_spec (f_name fe) (f_name fe)); congruence.
Qed.

Lemma with_vars_env xs : forall e, e_vars (Compile.with_vars xs e) = map CVar (rev xs) ++ e_vars e /\ e_funs (Compile.with_vars xs e) = e_funs e.
Proof.
  unfold Compile.with_vars. induction xs as [|x xs IH]; intros e; [split; reflexivity|]. cbn [fold_left rev]. destruct (IH (push_var (CVar x) e)) as [H1 H2].
  rewrite H1, H2. cbn [push_var e_vars e_funs]. rewrite map_app, <- app_assoc. split; reflexivity.
Qed.

Section Named.
  Context {B : Type}.
  Fixpoint nlookup (rho : list (cbind * B)) (x : cbind) : option B :=
    match rho with [] => None | (y, a) :: r => if cbind_eqb x y then Some a else nlookup r x end.

  Lemma lookup_index (rho : list (cbind * B)) : forall x i, index_of x (map fst rho) 0 = Some i ->
    exists a, nth_error (map snd rho) i = Some a /\ nlookup rho x = Some a /\ In (x, a) rho.
  Proof.
    induction rho as [|[y a] rho IH]; intros x i H; [discriminate|]. cbn [map fst nlookup] in *. rewrite index_of_cons in H.
    destruct (cbind_eqb x y) eqn:E.
    - injection H as <-. exists a. apply cbind_eqb_eq in E. subst. repeat split; [left; reflexivity].
    - destruct (index_of x (map fst rho) 0) as [j|] eqn:Ej; [|discriminate]. injection H as <-.
      destruct (IH x j Ej) as (a' & Hn & Hl & Hin). exists a'. repeat split; [exact Hn|exact Hl|right; exact Hin].
  Qed.

  (** a call of a definition made when [rd] was the environment drops what was pushed since, [cp] in the context *)
  Lemma skip_pushed (e : env) (c : ctx) (pushed rd : list (cbind * B)) cp crd :
    map fst (pushed ++ rd) = e_vars e -> length cp = length pushed -> vars c = cp ++ crd ->
    vars (skip_vars (total e - length rd) c) = crd.
  Proof.
    intros Hm Hl Hv. unfold skip_vars, total. cbn [vars].
    rewrite <- Hm, map_length, app_length, Nat.add_sub, Hv, <- Hl, skipn_app, skipn_all, Nat.sub_diag. reflexivity.
  Qed.
End Named.

Section Compiler.
  Variable g : genv.

  (** written as they stand inside [c_term], so that the equations below hold by conversion *)
  Definition iterm (m : nat) (e : env) (s : cst) (t : pterm) : term * cst := let '((t', _), s') := c_term g m e s t [] in (t', s').
  Definition c_args (m : nat) : env -> cst -> list pterm -> list term * cst :=
    fix go e s ts :=
      match ts with
      | [] => ([], s)
      | t :: r => let '(t', s) := iterm m e s t in let '(r', s) := go e s r in (t' :: r', s)
      end.
  Definition c_opt (m : nat) (e : env) (s : cst) (o : option pterm) : option term * cst :=
    match o with Some t => let '(t', s) := iterm m e s t in (Some t', s) | None => (None, s) end.
  Definition c_parts (m : nat) (e : env) : cst -> list (ppart * bool) -> list (part * bool) * cst :=
    fix go s ps :=
      match ps with
      | [] => ([], s)
      | (p, o) :: r =>
          let '(p', s) :=
            match p with
            | PIndex i => let '(i', s) := iterm m e s i in (Index i', s)
            | PRange f u => let '(f', s) := c_opt m e s f in let '(u', s) := c_opt m e s u in (Range f' u', s)
            end in
          let '(r', s) := go s r in
          ((p', o) :: r', s)
      end.

  Lemma c_call m e s f args tr :
    c_term g (S m) e s (PCall f args) tr = let '(cargs, s') := c_args m e s args in call g e s' f cargs tr.
  Proof. reflexivity. Qed.
  Lemma c_path m e s t path tr :
    c_term g (S m) e s (PPath t path) tr =
    let '(t', s1) := iterm m e s t in let '(cps, s2) := c_parts m e s1 path in ((KPath t' cps, []), s2).
  Proof. reflexivity. Qed.
  Lemma c_fold m e s name xs p init upd rest tr :
    c_term g (S m) e s (PFold name xs p (init :: upd :: rest)) tr =
    let '(xs', s) := iterm m e s xs in
    let '(p', s) := c_pattern g m e s p in
    let '(init', s) := iterm m e s init in
    let '(upd', s) := iterm m (Compile.with_vars (pat_vars_f m p) e) s upd in
    let failed := let '(t, s) := fail s in ((t, []), s) in
    if bytes_eqb name name_reduce then
      match rest with [] => ((KFold xs' p' init' upd' Reduce, []), s) | _ => failed end
    else if bytes_eqb name name_foreach then
      match rest with
      | [] => ((KFold xs' p' init' upd' (Foreach None), []), s)
      | [proj] => let '((proj', tr_), s) := c_term g m (Compile.with_vars (pat_vars_f m p) e) s proj tr in
                  ((KFold xs' p' init' upd' (Foreach (Some proj')), tr_), s)
      | _ => failed
      end
    else failed.
  Proof. reflexivity. Qed.
  Lemma c_pat_var m e s x : c_pattern g m e s (PPVar x) = (PatVar, s).
  Proof. destruct m; reflexivity. Qed.

  Lemma c_comma m e s l r tr :
    c_term g (S m) e s (PBinOp l BComma r) tr =
    let '((l', trl), s1) := c_term g m e s l tr in
    let '((r', trr), s2) := c_term g m e s1 r tr in
    ((KComma l' r', union trl trr), s2).
  Proof. reflexivity. Qed.

  Lemma c_alt m e s l r tr :
    c_term g (S m) e s (PBinOp l BAlt r) tr =
    let '((l', _), s1) := c_term g m e s l [] in
    let '((r', tr_), s2) := c_term g m e s1 r tr in
    ((KAlt l' r', tr_), s2).
  Proof. cbn [c_term]. destruct (c_term g m e s l []) as [[l' t0] s1]. reflexivity. Qed.

  Lemma c_pipe m e s l r tr :
    c_term g (S m) e s (PBinOp l (BPipe None) r) tr =
    let '((l', _), s1) := c_term g m e s l [] in
    let '((r', tr_), s2) := c_term g m e s1 r tr in
    ((KPipe l' None r', tr_), s2).
  Proof.
    cbn [c_term]. destruct (c_term g m e s l []) as [[l' t0] s1]. cbn [Compile.with_vars fold_left].
    destruct (c_term g m e s1 r tr) as [[r' tr_] s2]. reflexivity.
  Qed.

  Lemma c_bind m e s l p r tr :
    c_term g (S m) e s (PBinOp l (BPipe (Some p)) r) tr =
    let '((l', _), s1) := c_term g m e s l [] in
    let '((r', tr_), s2) := c_term g m (Compile.with_vars (pat_vars_f m p) e) s1 r tr in
    let '(p', s3) := c_pattern g m e s2 p in
    ((KPipe l' (Some p') r', tr_), s3).
  Proof.
    cbn [c_term]. destruct (c_term g m e s l []) as [[l' t0] s1].
    destruct (c_term g m (Compile.with_vars (pat_vars_f m p) e) s1 r tr) as [[r' tr_] s2].
    fold (c_pattern g m e s2 p). destruct (c_pattern g m e s2 p) as [p' s3]. reflexivity.
  Qed.

  Lemma c_ite m e s i t el tr :
    c_term g (S m) e s (PIte [(i, t)] (Some el)) tr =
    let '((i', _), s1) := c_term g m e s i [] in
    let '((t', trt), s2) := c_term g m e s1 t tr in
    let '((e', tre), s3) := c_term g m e s2 el tr in
    ((KIte i' t' e', union trt tre), s3).
  Proof.
    cbn [c_term]. destruct (c_term g m e s i []) as [[i' t0] s1].
    destruct (c_term g m e s1 t tr) as [[t' trt] s2]. destruct (c_term g m e s2 el tr) as [[e' tre] s3]. reflexivity.
  Qed.

  Lemma c_foreach m e s xs p init update proj tr :
    c_term g (S m) e s (PFold name_foreach xs p [init; update; proj]) tr =
    let '((xs', _), s1) := c_term g m e s xs [] in
    let '(pat', s2) := c_pattern g m e s1 p in
    let '((init', _), s3) := c_term g m e s2 init [] in
    let '((update', _), s4) := c_term g m (Compile.with_vars (pat_vars_f m p) e) s3 update [] in
    let '((proj', tr_), s5) := c_term g m (Compile.with_vars (pat_vars_f m p) e) s4 proj tr in
    ((KFold xs' pat' init' update' (Foreach (Some proj')), tr_), s5).
  Proof.
    cbn [c_term]. destruct (c_term g m e s xs []) as [[xs' t0] s1].
    fold (c_pattern g m e s1 p). destruct (c_pattern g m e s1 p) as [pat' s2].
    destruct (c_term g m e s2 init []) as [[init' t1] s3].
    destruct (c_term g m (Compile.with_vars (pat_vars_f m p) e) s3 update []) as [[update' t2] s4].
    change (bytes_eqb name_foreach name_reduce) with false. change (bytes_eqb name_foreach name_foreach) with true. cbn iota.
    destruct (c_term g m (Compile.with_vars (pat_vars_f m p) e) s4 proj tr) as [[proj' tr_] s5]. reflexivity.
  Qed.

  Lemma c_def1 m e s f ps body t tr :
    c_term g (S (S m)) e s (PDef [PDefn f ps body] t) tr
    = let id := length (c_defs s) in
      let '((kb, trb), s2) := c_term g m (push_parent f ps id e) {| c_defs := c_defs s ++ [KId]; c_errs := c_errs s |} body (id :: tr) in
      c_term g (S m) (push_sibling f (map is_var_name ps) id trb e) (set_def id kb s2) t tr.
  Proof.
    change (c_term g (S (S m)) e s (PDef [PDefn f ps body] t) tr) with
      (let '(e', s') := (let '(e0, s0) := c_open_def g (S m) e s (PDefn f ps body) tr in (e0, s0)) in c_term g (S m) e' s' t tr).
    change (c_open_def g (S m) e s (PDefn f ps body) tr) with
      (let '((b0, tr_), s0) := c_term g m (push_parent f ps (length (c_defs s)) e) {| c_defs := c_defs s ++ [KId]; c_errs := c_errs s |}
                                 body (length (c_defs s) :: tr) in
       (push_sibling f (map is_var_name ps) (length (c_defs s)) tr_ e, set_def (length (c_defs s)) b0 s0)).
    cbv zeta. destruct (c_term g m _ _ body _) as [[kb trb] s2]. reflexivity.
  Qed.

End Compiler.

Definition fun_entry (fe : fentry) : option (nat * list bool) :=
  match f_kind fe with FParent kinds id | FSibling kinds id _ => Some (id, kinds) | FArg => None end.
(** what [local_call] makes of a call that resolves to [fe]: a call into the table of definitions (of whatever call type), or
    for a filter argument the variable that holds its closure; [total e - f_vars fe] bindings were made since [fe] came
    into scope *)
Definition call_of (e : env) (fe : fentry) (cargs : list term) (k : term) : Prop :=
  match fun_entry fe with
  | Some (id, kinds) => exists typ, k = KCallDef id (binds kinds cargs) (total e - f_vars fe) typ
  | None => k = KVar (total e - f_vars fe)
  end.
Lemma call_of_def e fe cargs k id kinds : fun_entry fe = Some (id, kinds) -> call_of e fe cargs k ->
  exists typ, k = KCallDef id (binds kinds cargs) (total e - f_vars fe) typ.
Proof. unfold call_of. intros ->. auto. Qed.
Lemma call_of_arg e fe cargs k : f_kind fe = FArg -> call_of e fe cargs k -> k = KVar (total e - f_vars fe).
Proof. unfold call_of, fun_entry. intros ->. auto. Qed.
Lemma local_call_found e f cargs tr fe : find_fun f (length cargs) (e_funs e) = Some fe ->
  exists k tr', local_call e f cargs tr = Some (k, tr') /\ call_of e fe cargs k.
Proof.
  intros H. unfold local_call, call_of, fun_entry. rewrite H. destruct (f_kind fe) as [|kinds id|kinds id trs].
  - eexists _, _. split; reflexivity.
  - destruct (mem id tr); eexists _, _; (split; [reflexivity|eexists; reflexivity]).
  - destruct (subset _ _); eexists _, _; (split; [reflexivity|eexists; reflexivity]).
Qed.

Section Interpreter.
  Variable d : val -> bytes.
  Variable nr : nat -> bytes -> list narg -> val -> option (str val).
  Notation run := (run d nr).
  Notation explode := (explode d nr).
  Notation bind_vars := (bind_vars d nr).
  Notation bind_pats := (bind_pats d nr).

  Lemma run_pipe defs fuel l r c v : run defs (S fuel) (KPipe l None r) c v = sbind (run defs fuel l c v) (fun y => run defs fuel r c y).
  Proof. reflexivity. Qed.
  Lemma run_math defs fuel l op r c v :
    run defs (S fuel) (KMath l op r) c v
    = sbind (sbind (run defs fuel l c v) (fun a => smap (fun y => (a, y)) (run defs fuel r c v))) (fun xy => of_res_opt (math_run op (fst xy) (snd xy))).
  Proof. reflexivity. Qed.
  Lemma run_objsingle defs fuel k x c v :
    run defs (S fuel) (KObjSingle k x) c v
    = smap (fun kv => from_map [kv]) (sbind (run defs fuel k c v) (fun a => smap (fun y => (a, y)) (run defs fuel x c v))).
  Proof. reflexivity. Qed.
  Lemma run_path defs fuel k cps c v :
    run defs (S fuel) (KPath k cps) c v = sbind (run defs fuel k c v) (fun y => sbind (explode defs fuel cps c v) (fun ps => path_run ps y)).
  Proof. reflexivity. Qed.
  Lemma explode_cons defs fuel p o cps c v :
    explode defs (S fuel) ((p, o) :: cps) c v =
    sbind (match p with
           | Index i => smap VIndex (run defs fuel i c v)
           | Range None None => sone (VRange None None)
           | Range (Some f) None => smap (fun x => VRange (Some x) None) (run defs fuel f c v)
           | Range None (Some u) => smap (fun x => VRange None (Some x)) (run defs fuel u c v)
           | Range (Some f) (Some u) => sbind (run defs fuel f c v) (fun x => smap (fun y => VRange (Some x) (Some y)) (run defs fuel u c v))
           end) (fun p' => smap (fun r => (p', o) :: r) (explode defs fuel cps c v)).
  Proof. reflexivity. Qed.

  Lemma run_calldef defs fuel id args skip ct c v :
    run defs (S fuel) (KCallDef id args skip ct) c v
    = match nth_error defs id with
      | Some body => sbind (bind_vars defs fuel args (skip_vars skip c) c v) (fun c' => run defs fuel body c' v)
      | None => SUnk
      end.
  Proof. reflexivity. Qed.
  Lemma bind_vars_cons defs fuel a rest acc c v :
    bind_vars defs (S fuel) ((true, a) :: rest) acc c v
    = sbind (run defs fuel a c v) (fun y => bind_vars defs fuel rest (cons_var y acc) c v).
  Proof. reflexivity. Qed.
  Lemma bind_vars_fun defs fuel a rest acc c v :
    bind_vars defs (S fuel) ((false, a) :: rest) acc c v = bind_vars defs fuel rest (cons_fun a c acc) c v.
  Proof. reflexivity. Qed.
  Lemma run_bindp defs fuel l cps r c v :
    run defs (S fuel) (KPipe l (Some (PatIdx cps)) r) c v
    = sbind (run defs fuel l c v) (fun y => sbind (bind_pats defs fuel cps c c y) (fun c' => run defs fuel r c' v)).
  Proof. reflexivity. Qed.
  Lemma bind_pats_cons defs fuel idx rest acc c0 y :
    bind_pats defs (S fuel) ((idx, PatVar) :: rest) acc c0 y
    = let one := sbind (run defs fuel idx c0 y) (fun i => sbind (of_res (vindex y i)) (fun x => sone (cons_var x acc))) in
      match rest with [] => one | _ => sbind one (fun acc' => bind_pats defs fuel rest acc' c0 y) end.
  Proof. reflexivity. Qed.

  Definition push_vals (ys : list val) (acc : ctx) : ctx := fold_left (fun a y => cons_var y a) ys acc.
  Lemma push_vals_vars ys : forall a, vars (push_vals ys a) = map BVar (rev ys) ++ vars a.
  Proof. unfold push_vals. induction ys as [|y ys IH]; intros a; [reflexivity|]. cbn [fold_left rev]. rewrite IH. cbn [cons_var vars]. rewrite map_app, <- app_assoc. reflexivity. Qed.
  Lemma push_vals_labels ys : forall a, labels (push_vals ys a) = labels a.
  Proof. unfold push_vals. induction ys as [|y ys IH]; intros a; [reflexivity|]. cbn [fold_left]. rewrite IH. reflexivity. Qed.

  (** the loop inside [run] for [KFold], over the contexts that bind the outputs of the generator, and [sfold], the same
      loop over the outputs themselves, by which the named semantics fold *)
  Definition fold_ctx (defs : list term) (fuel : nat) (upd : term) (ft : foldtype) : str ctx -> val -> str val :=
    fix go (xs : str ctx) (acc : val) : str val :=
      match xs with
      | SNil => match ft with Reduce => sone acc | Foreach _ => SNil end
      | SCons cx k =>
          sbind (run defs fuel upd cx acc) (fun y =>
            sapp (match ft with
                  | Reduce => SNil
                  | Foreach None => sone y
                  | Foreach (Some p) => run defs fuel p cx y
                  end) (fun _ => go (k tt) y))
      | SExn e => SExn e
      | SBot => SBot
      | SUnk => SUnk
      end.
  Fixpoint sfold (step : val -> val -> str val) (emit : val -> val -> str val) (fin : val -> str val)
      (s : str val) (acc : val) : str val :=
    match s with
    | SNil => fin acc
    | SCons y k => sbind (step y acc) (fun z => sapp (emit y z) (fun _ => sfold step emit fin (k tt) z))
    | SExn e => SExn e
    | SBot => SBot
    | SUnk => SUnk
    end.

  Lemma run_fold defs fuel xs pat init upd ft c v :
    run defs (S fuel) (KFold xs pat init upd ft) c v =
    sbind (run defs fuel init c v) (fun i => fold_ctx defs fuel upd ft (run_and_bind d nr defs fuel xs c v pat) i).
  Proof. reflexivity. Qed.
  Lemma run_and_bind_var defs fuel xs c v :
    run_and_bind d nr defs fuel xs c v PatVar =
    match fuel with O => SBot | S f => sbind (run defs f xs c v) (fun y => sone (cons_var y c)) end.
  Proof. destruct fuel; reflexivity. Qed.

  Lemma fold_ctx_vals defs fuel upd ft c step emit fin :
    (forall y acc, run defs fuel upd (cons_var y c) acc = step y acc) ->
    (forall y z, match ft with Reduce => SNil | Foreach None => sone z | Foreach (Some p) => run defs fuel p (cons_var y c) z end = emit y z) ->
    (forall acc, match ft with Reduce => sone acc | Foreach _ => SNil end = fin acc) ->
    forall sv acc, fold_ctx defs fuel upd ft (sbind sv (fun y => sone (cons_var y c))) acc = sfold step emit fin sv acc.
  Proof.
    intros Hs He Hf sv. induction sv as [|y k IH|e| |]; intros acc; try reflexivity.
    - cbn [sbind fold_ctx sfold]. apply Hf.
    - cbn [sbind sone sapp fold_ctx sfold]. rewrite Hs. apply sbind_ext. intros z. rewrite He. apply sapp_ext. apply IH.
  Qed.
End Interpreter.

Definition table_extends (s s' : cst) : Prop :=
  c_errs s' = c_errs s /\ (length (c_defs s) <= length (c_defs s'))%nat
  /\ forall i, (i < length (c_defs s))%nat -> nth_error (c_defs s') i = nth_error (c_defs s) i.
(** [defs] contains what was allocated between [s] and [s'] *)
Definition table_covers (s s' : cst) (defs : list term) : Prop :=
  forall i, (length (c_defs s) <= i < length (c_defs s'))%nat -> nth_error defs i = nth_error (c_defs s') i.

Lemma extends_refl s : table_extends s s.
Proof. repeat split; auto. Qed.
Lemma extends_trans s1 s2 s3 : table_extends s1 s2 -> table_extends s2 s3 -> table_extends s1 s3.
Proof.
  intros (E1 & L1 & H1) (E2 & L2 & H2). repeat split; [congruence|lia|]. intros i Hi. rewrite H2 by lia. apply H1. exact Hi.
Qed.
Lemma covers_refl s defs : table_covers s s defs.
Proof. intros i Hi. lia. Qed.
Lemma covers_left s1 s2 s3 defs : table_extends s1 s2 -> table_extends s2 s3 -> table_covers s1 s3 defs -> table_covers s1 s2 defs.
Proof. intros (_ & L1 & _) (_ & L2 & H2) H i Hi. rewrite H by lia. apply H2. lia. Qed.
Lemma covers_right s1 s2 s3 defs : table_extends s1 s2 -> table_extends s2 s3 -> table_covers s1 s3 defs -> table_covers s2 s3 defs.
Proof. intros (_ & L1 & _) (_ & L2 & _) H i Hi. apply H. lia. Qed.

(** the states that [c_def1] goes through *)
Lemma def_table s kb s2 s4 :
  let id := length (c_defs s) in
  let s1 := {| c_defs := c_defs s ++ [KId]; c_errs := c_errs s |} in
  table_extends s1 s2 -> table_extends (set_def id kb s2) s4 ->
  table_extends s s4
  /\ forall defs, table_covers s s4 defs ->
       nth_error defs id = Some kb /\ table_covers s1 s2 defs /\ table_covers (set_def id kb s2) s4 defs.
Proof.
  intros id s1 (E2 & L2 & N2) X4. cbn [s1 c_defs c_errs] in E2, L2, N2. rewrite app_length in L2, N2. cbn [length] in L2, N2.
  assert (X3 : table_extends s (set_def id kb s2)).
  { unfold set_def. repeat split; cbn [c_defs c_errs]; [exact E2|rewrite set_nth_length; lia|].
    intros i Hi. rewrite set_nth_other by (unfold id; lia). rewrite N2 by lia. apply nth_error_app1. exact Hi. }
  split; [exact (extends_trans _ _ _ X3 X4)|]. intros defs Hc. split; [|split; [|exact (covers_right _ _ _ _ X3 X4 Hc)]].
  - destruct X4 as (_ & L4 & N4). cbn [set_def c_defs] in L4, N4. rewrite set_nth_length in L4, N4.
    rewrite Hc by (unfold id; lia). rewrite N4 by (unfold id; lia). apply set_nth_same. unfold id. lia.
  - destruct X4 as (_ & L4 & N4). cbn [set_def c_defs] in L4, N4. rewrite set_nth_length in L4, N4.
    intros i Hi. cbn [s1 c_defs] in Hi. rewrite app_length in Hi. cbn [length] in Hi. rewrite Hc by lia. rewrite N4 by lia.
    apply set_nth_other. unfold id. lia.
Qed.

Section Sim.
  Context {g : genv} {d : val -> bytes} {nr : nat -> bytes -> list narg -> val -> option (str val)}.
  Notation run := (run d nr).
  Notation explode := (explode d nr).

  (** Each theorem relates the compiled term, run by the interpreter in a context, to a semantics of its own ([Sem], of
      paths [SemX]) over named environments [NE].  [Inv] is the invariant between the compile-time environment, a context
      and a named environment (step-indexed, over a table of definitions); [Ext] and [Cov] say how the compiler's state
      may grow: [eq] and [True] in CompileCorrect.v (without definitions the state does not change and any table will do),
      [table_extends] and [table_covers], which [compiles_def] demands, in the others.
      A proof for a new fragment gives these eight fields and proves [sim_ok]; where the named environment mirrors the
      context position by position, [pos_sim_ok] (last section) leaves five hypotheses of that. *)
  Record sim := {
    NE : Type;
    Sem : nat -> pterm -> NE -> nat -> val -> str val;
    SemX : nat -> list (ppart * bool) -> NE -> nat -> val -> str (list (vpart * bool));
    bindv : bytes -> val -> NE -> NE;
    bindl : bytes -> nat -> NE -> NE;
    Inv : list term -> nat -> env -> ctx -> NE -> Prop;
    Ext : cst -> cst -> Prop;
    Cov : cst -> cst -> list term -> Prop }.

  (** the clauses of the semantics for the constructs in common; in each instance they hold by computation *)
  Record sem_eqs {M : sim} : Prop := {
    sem_0 : forall t E lab v, Sem M 0 t E lab v = SBot;
    sem_id : forall n E lab v, Sem M (S n) PId E lab v = sone v;
    sem_num : forall n x E lab v,
      Sem M (S n) (PNum x) E lab v = sone (match int_literal x with Some i => vint i | None => Num (from_str x) end);
    sem_neg : forall n t E lab v, Sem M (S n) (PNeg t) E lab v = sbind (Sem M n t E lab v) (fun x => of_res (vneg x));
    sem_arr : forall n t E lab v, Sem M (S n) (PArr (Some t)) E lab v = collect_then (Sem M n t E lab v) (fun l => sone (Arr l));
    sem_try : forall n t c E lab v,
      Sem M (S n) (PTryCatch t (Some c)) E lab v = stry (Sem M n t E lab v) (fun e => Sem M n c E lab (err_val d e));
    sem_ite : forall n i th el E lab v,
      Sem M (S n) (PIte [(i, th)] (Some el)) E lab v = sbind (Sem M n i E lab v) (fun x => Sem M n (if as_bool x then th else el) E lab v);
    sem_pipe : forall n l r E lab v, Sem M (S n) (PBinOp l (BPipe None) r) E lab v = sbind (Sem M n l E lab v) (fun y => Sem M n r E lab y);
    sem_bind : forall n l x r E lab v,
      Sem M (S n) (PBinOp l (BPipe (Some (PPVar x))) r) E lab v = sbind (Sem M n l E lab v) (fun y => Sem M n r (bindv M x y E) lab v);
    sem_comma : forall n l r E lab v, Sem M (S n) (PBinOp l BComma r) E lab v = sapp (Sem M n l E lab v) (fun _ => Sem M n r E lab v);
    sem_alt : forall n l r E lab v,
      Sem M (S n) (PBinOp l BAlt r) E lab v = match sfilter as_bool (Sem M n l E lab v) with SNil => Sem M n r E lab v | s => s end;
    sem_math : forall n l o r E lab v,
      Sem M (S n) (PBinOp l (BMath o) r) E lab v
      = sbind (sbind (Sem M n l E lab v) (fun x => smap (fun y => (x, y)) (Sem M n r E lab v))) (fun xy => of_res_opt (math_run o (fst xy) (snd xy)));
    sem_cmp : forall n l o r E lab v,
      Sem M (S n) (PBinOp l (BCmp o) r) E lab v
      = smap (fun xy => Bool (cmp_run o (fst xy) (snd xy))) (sbind (Sem M n l E lab v) (fun x => smap (fun y => (x, y)) (Sem M n r E lab v)));
    sem_or : forall n l r E lab v,
      Sem M (S n) (PBinOp l BOr r) E lab v
      = sbind (Sem M n l E lab v) (fun x => if Bool.eqb (as_bool x) true then sone (Bool true)
                                           else smap (fun y => Bool (as_bool y)) (Sem M n r E lab v));
    sem_and : forall n l r E lab v,
      Sem M (S n) (PBinOp l BAnd r) E lab v
      = sbind (Sem M n l E lab v) (fun x => if Bool.eqb (as_bool x) false then sone (Bool false)
                                           else smap (fun y => Bool (as_bool y)) (Sem M n r E lab v));
    sem_path : forall n t path E lab v,
      Sem M (S n) (PPath t path) E lab v = sbind (Sem M n t E lab v) (fun y => sbind (SemX M n path E lab v) (fun ps => path_run ps y));
    sem_fold : forall n name xs x init upd rest E lab v,
      Sem M (S n) (PFold name xs (PPVar x) (init :: upd :: rest)) E lab v
      = let xsv := match n with O => SBot | S n' => Sem M n' xs E lab v end in   (* [run_and_bind] spends a unit of fuel too *)
        let step := fun y acc => Sem M n upd (bindv M x y E) lab acc in
        if bytes_eqb name name_reduce then
          match rest with
          | [] => sbind (Sem M n init E lab v) (sfold step (fun _ _ => SNil) sone xsv)
          | _ => SUnk
          end
        else if bytes_eqb name name_foreach then
          match rest with
          | [] => sbind (Sem M n init E lab v) (sfold step (fun _ z => sone z) (fun _ => SNil) xsv)
          | [proj] => sbind (Sem M n init E lab v) (sfold step (fun y z => Sem M n proj (bindv M x y E) lab z) (fun _ => SNil) xsv)
          | _ => SUnk
          end
        else SUnk;
    sem_label : forall n x t E lab v, Sem M (S n) (PLabel x t) E lab v = slabel (S lab) (Sem M n t (bindl M x (S lab) E) (S lab) v);
    semx_0 : forall ps E lab v, SemX M 0 ps E lab v = SBot;
    semx_nil : forall n E lab v, SemX M (S n) [] E lab v = sone [];
    semx_cons : forall n p opt rest E lab v,
      SemX M (S n) ((p, opt) :: rest) E lab v
      = sbind (match p with
               | PIndex i => smap VIndex (Sem M n i E lab v)
               | PRange None None => sone (VRange None None)
               | PRange (Some f) None => smap (fun x => VRange (Some x) None) (Sem M n f E lab v)
               | PRange None (Some u) => smap (fun x => VRange None (Some x)) (Sem M n u E lab v)
               | PRange (Some f) (Some u) => sbind (Sem M n f E lab v) (fun x => smap (fun y => VRange (Some x) (Some y)) (Sem M n u E lab v))
               end) (fun p' => smap (fun r => (p', opt) :: r) (SemX M n rest E lab v)) }.

  Arguments sem_eqs : clear implicits.

  Record sim_ok {M : sim} : Prop := {
    sem_ok : sem_eqs M;
    ext_refl : forall s, Ext M s s;
    ext_trans : forall s1 s2 s3, Ext M s1 s2 -> Ext M s2 s3 -> Ext M s1 s3;
    cov_left : forall s1 s2 s3 defs, Ext M s1 s2 -> Ext M s2 s3 -> Cov M s1 s3 defs -> Cov M s1 s2 defs;
    cov_right : forall s1 s2 s3 defs, Ext M s1 s2 -> Ext M s2 s3 -> Cov M s1 s3 defs -> Cov M s2 s3 defs;
    inv_pred : forall defs fuel e c E, Inv M defs (S fuel) e c E -> Inv M defs fuel e c E;
    inv_bindv : forall defs fuel e c E x y,
      Inv M defs fuel e c E -> Inv M defs fuel (push_var (CVar x) e) (cons_var y c) (bindv M x y E);
    inv_bindl : forall defs fuel e c E x,
      Inv M defs fuel e c E -> Inv M defs fuel (push_var (CLabel x) e) (cons_label c) (bindl M x (S (labels c)) E);
    inv_var : forall defs fuel e c E x i v, Inv M defs fuel e c E -> index_of (CVar x) (e_vars e) 0 = Some i ->
      run defs fuel (KVar i) c v = Sem M fuel (PVar x) E (labels c) v;
    inv_break : forall defs fuel e c E x i v, Inv M defs fuel e c E -> index_of (CLabel x) (e_vars e) 0 = Some i ->
      run defs fuel (KVar i) c v = Sem M fuel (PBreak x) E (labels c) v }.
  Arguments sim_ok : clear implicits.

  (** [Q] holds of every table that contains what was allocated while the compiler's state went from [s] to [s'] *)
  Definition holds (M : sim) (s s' : cst) (Q : list term -> Prop) : Prop := Ext M s s' /\ forall defs, Cov M s s' defs -> Q defs.
  (** the compiled term [k] computes the semantics of [t] wherever the invariant holds *)
  Definition runs_as (M : sim) (e : env) (k : term) (t : pterm) (defs : list term) : Prop :=
    forall fuel c E v, Inv M defs fuel e c E -> run defs fuel k c v = Sem M fuel t E (labels c) v.
  Definition explodes_as (M : sim) (e : env) (cps : list (part * bool)) (ps : list (ppart * bool)) (defs : list term) : Prop :=
    forall fuel c E v, Inv M defs fuel e c E -> explode defs fuel cps c v = SemX M fuel ps E (labels c) v.
  (** with the names [b] in scope and [Q] true of the functions in scope ([Q] is what the proof needs of [e_funs e]: nothing
      without definitions, [defined fs] with), [t] compiles, with enough fuel, to such a term; the set [trr] of definitions
      it may tail-call is not constrained *)
  Definition compiles (M : sim) (b : list cbind) (Q : list fentry -> Prop) (n : nat) (t : pterm) : Prop :=
    forall m e s tr, (n <= m)%nat -> in_scope b e -> Q (e_funs e) ->
    exists k trr s', c_term g m e s t tr = ((k, trr), s') /\ holds M s s' (runs_as M e k t).
  Definition compiles_parts (M : sim) (b : list cbind) (Q : list fentry -> Prop) (n : nat) (ps : list (ppart * bool)) : Prop :=
    forall m e s, (n <= m)%nat -> in_scope b e -> Q (e_funs e) ->
    exists cps s', c_parts g m e s ps = (cps, s') /\ holds M s s' (explodes_as M e cps ps).

  (** the arguments of a call; how the interpreter binds them ([binds_as]) is each proof's own *)
  Definition args_rel : Type := env -> list pterm -> list term -> list term -> Prop.
  Definition compiles_args (M : sim) (binds_as : args_rel) (b : list cbind) (Q : list fentry -> Prop) (n : nat) (args : list pterm) : Prop :=
    forall m e s, (n <= m)%nat -> in_scope b e -> Q (e_funs e) ->
    exists cargs s', c_args g m e s args = (cargs, s') /\ length cargs = length args /\ holds M s s' (binds_as e args cargs).

  Context {M : sim} (HM : sim_ok M).
  Let HE := sem_ok HM.

  Lemma holds_ret {s} {Q : list term -> Prop} : (forall defs, Q defs) -> holds M s s Q.
  Proof. intros H. split; [apply (ext_refl HM)|intros defs _; apply H]. Qed.
  Lemma holds_and {s s1 s2} {Q1 Q2 : list term -> Prop} : holds M s s1 Q1 -> holds M s1 s2 Q2 -> holds M s s2 (fun defs => Q1 defs /\ Q2 defs).
  Proof.
    intros [X1 R1] [X2 R2]. split; [exact (ext_trans HM _ _ _ X1 X2)|]. intros defs Hc.
    split; [apply R1; exact (cov_left HM _ _ _ _ X1 X2 Hc)|apply R2; exact (cov_right HM _ _ _ _ X1 X2 Hc)].
  Qed.
  Lemma holds_imp {s s'} {Q Q' : list term -> Prop} : holds M s s' Q -> (forall defs, Q defs -> Q' defs) -> holds M s s' Q'.
  Proof. intros [X R] H. split; [exact X|]. intros defs Hc. apply H, R, Hc. Qed.

  Lemma inv_le defs fuel fuel' e c E : (fuel' <= fuel)%nat -> Inv M defs fuel e c E -> Inv M defs fuel' e c E.
  Proof. induction 1 as [|fuel Hle IH]; [auto|]. intros H. apply IH, (inv_pred HM), H. Qed.

  Lemma runs_as_S e k t defs :
    (forall fuel c E v, Inv M defs fuel e c E -> run defs (S fuel) k c v = Sem M (S fuel) t E (labels c) v) -> runs_as M e k t defs.
  Proof. intros H [|fuel] c E v HI; [symmetry; apply (sem_0 HE)|]. apply H, (inv_pred HM), HI. Qed.
  Lemma explodes_as_S e cps ps defs :
    (forall fuel c E v, Inv M defs fuel e c E -> explode defs (S fuel) cps c v = SemX M (S fuel) ps E (labels c) v) -> explodes_as M e cps ps defs.
  Proof. intros H [|fuel] c E v HI; [symmetry; apply (semx_0 HE)|]. apply H, (inv_pred HM), HI. Qed.

  Lemma runs_id e defs : runs_as M e KId PId defs.
  Proof. apply runs_as_S. intros fuel c E v _. rewrite (sem_id HE). reflexivity. Qed.
  Lemma runs_path e k t cps ps defs : runs_as M e k t defs -> explodes_as M e cps ps defs -> runs_as M e (KPath k cps) (PPath t ps) defs.
  Proof.
    intros R1 R2. apply runs_as_S. intros fuel c E v HI. rewrite (sem_path HE), run_path, (R1 fuel c E v HI).
    apply sbind_ext. intros y. rewrite (R2 fuel c E v HI). reflexivity.
  Qed.
  Lemma explodes_nil e defs : explodes_as M e [] [] defs.
  Proof. apply explodes_as_S. intros fuel c E v _. rewrite (semx_nil HE). reflexivity. Qed.
  Definition opt_runs_as (e : env) (ok : option term) (ot : option pterm) (defs : list term) : Prop :=
    match ok, ot with Some k, Some t => runs_as M e k t defs | None, None => True | _, _ => False end.
  Definition part_runs_as (e : env) (cp : part) (p : ppart) (defs : list term) : Prop :=
    match cp, p with
    | Index k, PIndex i => runs_as M e k i defs
    | Range kf ku, PRange f u => opt_runs_as e kf f defs /\ opt_runs_as e ku u defs
    | _, _ => False
    end.
  Lemma explodes_cons e cp p o cps ps defs :
    part_runs_as e cp p defs -> explodes_as M e cps ps defs -> explodes_as M e ((cp, o) :: cps) ((p, o) :: ps) defs.
  Proof.
    intros R1 R2. apply explodes_as_S. intros fuel c E v HI. rewrite (semx_cons HE), explode_cons, (R2 fuel c E v HI).
    destruct cp as [k|kf ku], p as [i|f u]; try contradiction.
    - rewrite (R1 fuel c E v HI). reflexivity.
    - destruct R1 as [Rf Ru]. destruct kf as [kf|], f as [f|]; try contradiction; destruct ku as [ku|], u as [u|]; try contradiction.
      + rewrite (Rf fuel c E v HI), (Ru fuel c E v HI). reflexivity.
      + rewrite (Rf fuel c E v HI). reflexivity.
      + rewrite (Ru fuel c E v HI). reflexivity.
      + reflexivity.
  Qed.

  Section Constructs.
    Variables (b : list cbind) (Q : list fentry -> Prop) (n : nat).

    Lemma compiles_S t :
      (forall m e s tr, (n <= m)%nat -> in_scope b e -> Q (e_funs e) ->
       exists k trr s', c_term g (S m) e s t tr = ((k, trr), s') /\ holds M s s' (runs_as M e k t)) -> compiles M b Q (S n) t.
    Proof. intros H [|m] e s tr Hm; [lia|]. apply H. lia. Qed.

    Lemma compiles_id : compiles M b Q (S n) PId.
    Proof.
      apply compiles_S. intros m e s tr _ _ _. exists KId, [], s. split; [reflexivity|]. apply holds_ret. apply runs_id.
    Qed.
    Lemma compiles_num x : compiles M b Q (S n) (PNum x).
    Proof.
      apply compiles_S. intros m e s tr Hm _ _. eexists _, [], s. split; [reflexivity|]. apply holds_ret.
      intros defs. apply runs_as_S. intros fuel c E v _. rewrite (sem_num HE). cbn [Run.run]. destruct (int_literal x); reflexivity.
    Qed.
    Lemma compiles_var x : In (CVar x) b -> compiles M b Q (S n) (PVar x).
    Proof.
      intros Hx. apply compiles_S. intros m e s tr Hm Hb _. specialize (Hb (CVar x) Hx).
      destruct (index_of (CVar x) (e_vars e) 0) as [i|] eqn:Ei; [|congruence].
      exists (KVar i), [], s. split; [cbn [c_term]; unfold var; rewrite Ei; reflexivity|]. apply holds_ret.
      intros defs fuel c E v HI. exact (inv_var HM _ _ _ _ _ _ _ v HI Ei).
    Qed.
    Lemma compiles_break x : In (CLabel x) b -> compiles M b Q (S n) (PBreak x).
    Proof.
      intros Hx. apply compiles_S. intros m e s tr Hm Hb _. specialize (Hb (CLabel x) Hx).
      destruct (index_of (CLabel x) (e_vars e) 0) as [i|] eqn:Ei; [|congruence].
      exists (KVar i), [], s. split; [cbn [c_term]; unfold break_; rewrite Ei; reflexivity|]. apply holds_ret.
      intros defs fuel c E v HI. exact (inv_break HM _ _ _ _ _ _ _ v HI Ei).
    Qed.

    Lemma compiles_neg t : compiles M b Q n t -> compiles M b Q (S n) (PNeg t).
    Proof.
      intros C. apply compiles_S. intros m e s tr Hm Hb HQ. destruct (C m e s [] Hm Hb HQ) as (k & trr & s1 & E1 & O1).
      exists (KNeg k), [], s1. split; [cbn [c_term]; rewrite E1; reflexivity|]. apply (holds_imp O1).
      intros defs R. apply runs_as_S. intros fuel c E v HI. rewrite (sem_neg HE). cbn [Run.run]. rewrite (R fuel c E v HI). reflexivity.
    Qed.
    Lemma compiles_arr t : compiles M b Q n t -> compiles M b Q (S n) (PArr (Some t)).
    Proof.
      intros C. apply compiles_S. intros m e s tr Hm Hb HQ. destruct (C m e s [] Hm Hb HQ) as (k & trr & s1 & E1 & O1).
      exists (KArr k), [], s1. split; [cbn [c_term]; rewrite E1; reflexivity|]. apply (holds_imp O1).
      intros defs R. apply runs_as_S. intros fuel c E v HI. rewrite (sem_arr HE). cbn [Run.run]. rewrite (R fuel c E v HI). reflexivity.
    Qed.
    Lemma compiles_label x t : compiles M (CLabel x :: b) Q n t -> compiles M b Q (S n) (PLabel x t).
    Proof.
      intros C. apply compiles_S. intros m e s tr Hm Hb HQ.
      destruct (C m (push_var (CLabel x) e) s [] Hm (in_scope_push b e _ Hb) HQ) as (k & trr & s1 & E1 & O1).
      exists (KLabel k), [], s1. split; [cbn [c_term]; rewrite E1; reflexivity|]. apply (holds_imp O1).
      intros defs R. apply runs_as_S. intros fuel c E v HI. rewrite (sem_label HE). cbn [Run.run].
      rewrite (R fuel (cons_label c) _ v (inv_bindl HM _ _ _ _ _ x HI)). reflexivity.
    Qed.

    Lemma compiles_try t h : compiles M b Q n t -> compiles M b Q n h -> compiles M b Q (S n) (PTryCatch t (Some h)).
    Proof.
      intros C1 C2. apply compiles_S. intros m e s tr Hm Hb HQ.
      destruct (C1 m e s [] Hm Hb HQ) as (k1 & tr1 & s1 & E1 & O1). destruct (C2 m e s1 [] Hm Hb HQ) as (k2 & tr2 & s2 & E2 & O2).
      exists (KTryCatch k1 k2), [], s2. split; [cbn [c_term]; rewrite E1, E2; reflexivity|]. apply (holds_imp (holds_and O1 O2)).
      intros defs [R1 R2]. apply runs_as_S. intros fuel c E v HI. rewrite (sem_try HE). cbn [Run.run]. rewrite (R1 fuel c E v HI).
      apply stry_ext. intros er. exact (R2 fuel c E _ HI).
    Qed.
    Lemma compiles_pipe l r : compiles M b Q n l -> compiles M b Q n r -> compiles M b Q (S n) (PBinOp l (BPipe None) r).
    Proof.
      intros C1 C2. apply compiles_S. intros m e s tr Hm Hb HQ.
      destruct (C1 m e s [] Hm Hb HQ) as (k1 & tr1 & s1 & E1 & O1). destruct (C2 m e s1 tr Hm Hb HQ) as (k2 & tr2 & s2 & E2 & O2).
      exists (KPipe k1 None k2), tr2, s2. split; [rewrite c_pipe, E1, E2; reflexivity|]. apply (holds_imp (holds_and O1 O2)).
      intros defs [R1 R2]. apply runs_as_S. intros fuel c E v HI. rewrite (sem_pipe HE). cbn [Run.run]. rewrite (R1 fuel c E v HI).
      apply sbind_ext. intros y. exact (R2 fuel c E y HI).
    Qed.
    Lemma compiles_bind l x r : compiles M b Q n l -> compiles M (CVar x :: b) Q n r -> compiles M b Q (S (S n)) (PBinOp l (BPipe (Some (PPVar x))) r).
    Proof.
      intros C1 C2 m e s tr Hm Hb HQ. destruct m as [|[|m]]; try lia.
      destruct (C1 (S m) e s [] ltac:(lia) Hb HQ) as (k1 & tr1 & s1 & E1 & O1).
      destruct (C2 (S m) (push_var (CVar x) e) s1 tr ltac:(lia) (in_scope_push b e _ Hb) HQ) as (k2 & tr2 & s2 & E2 & O2).
      exists (KPipe k1 (Some PatVar) k2), tr2, s2. split.
      - rewrite c_bind, E1. cbn [pat_vars_f]. change (Compile.with_vars [x] e) with (push_var (CVar x) e). rewrite E2, c_pat_var. reflexivity.
      - apply (holds_imp (holds_and O1 O2)).
        intros defs [R1 R2]. apply runs_as_S. intros fuel c E v HI. rewrite (sem_bind HE). cbn [Run.run]. rewrite (R1 fuel c E v HI).
        apply sbind_ext. intros y. exact (R2 fuel (cons_var y c) _ v (inv_bindv HM _ _ _ _ _ x y HI)).
    Qed.
    Lemma compiles_comma l r : compiles M b Q n l -> compiles M b Q n r -> compiles M b Q (S n) (PBinOp l BComma r).
    Proof.
      intros C1 C2. apply compiles_S. intros m e s tr Hm Hb HQ.
      destruct (C1 m e s tr Hm Hb HQ) as (k1 & tr1 & s1 & E1 & O1). destruct (C2 m e s1 tr Hm Hb HQ) as (k2 & tr2 & s2 & E2 & O2).
      exists (KComma k1 k2), (union tr1 tr2), s2. split; [rewrite c_comma, E1, E2; reflexivity|]. apply (holds_imp (holds_and O1 O2)).
      intros defs [R1 R2]. apply runs_as_S. intros fuel c E v HI. rewrite (sem_comma HE). cbn [Run.run]. rewrite (R1 fuel c E v HI).
      apply sapp_ext. exact (R2 fuel c E v HI).
    Qed.
    Lemma compiles_alt l r : compiles M b Q n l -> compiles M b Q n r -> compiles M b Q (S n) (PBinOp l BAlt r).
    Proof.
      intros C1 C2. apply compiles_S. intros m e s tr Hm Hb HQ.
      destruct (C1 m e s [] Hm Hb HQ) as (k1 & tr1 & s1 & E1 & O1). destruct (C2 m e s1 tr Hm Hb HQ) as (k2 & tr2 & s2 & E2 & O2).
      exists (KAlt k1 k2), tr2, s2. split; [rewrite c_alt, E1, E2; reflexivity|]. apply (holds_imp (holds_and O1 O2)).
      intros defs [R1 R2]. apply runs_as_S. intros fuel c E v HI. rewrite (sem_alt HE). cbn [Run.run]. rewrite (R1 fuel c E v HI), (R2 fuel c E v HI). reflexivity.
    Qed.

    (** the operators that [c_term] compiles by one clause *)
    Definition plain_op (op : binop) : Prop := match op with BMath _ | BCmp _ | BOr | BAnd => True | _ => False end.
    Lemma compiles_binop l op r : plain_op op -> compiles M b Q n l -> compiles M b Q n r -> compiles M b Q (S n) (PBinOp l op r).
    Proof.
      intros Hop C1 C2. apply compiles_S. intros m e s tr Hm Hb HQ.
      destruct (C1 m e s [] Hm Hb HQ) as (k1 & tr1 & s1 & E1 & O1). destruct (C2 m e s1 [] Hm Hb HQ) as (k2 & tr2 & s2 & E2 & O2).
      pose proof (holds_and O1 O2) as O.
      destruct op; try contradiction; (eexists _, [], s2; split; [cbn [c_term]; rewrite E1, E2; reflexivity|]);
        apply (holds_imp O); intros defs [R1 R2]; apply runs_as_S; intros fuel c E v HI.
      - rewrite (sem_or HE). cbn [Run.run]. rewrite (R1 fuel c E v HI), (R2 fuel c E v HI). reflexivity.
      - rewrite (sem_and HE). cbn [Run.run]. rewrite (R1 fuel c E v HI), (R2 fuel c E v HI). reflexivity.
      - rewrite (sem_math HE). cbn [Run.run]. rewrite (R1 fuel c E v HI), (R2 fuel c E v HI). reflexivity.
      - rewrite (sem_cmp HE). cbn [Run.run]. rewrite (R1 fuel c E v HI), (R2 fuel c E v HI). reflexivity.
    Qed.

    Lemma compiles_ite i th el : compiles M b Q n i -> compiles M b Q n th -> compiles M b Q n el -> compiles M b Q (S n) (PIte [(i, th)] (Some el)).
    Proof.
      intros C1 C2 C3. apply compiles_S. intros m e s tr Hm Hb HQ.
      destruct (C1 m e s [] Hm Hb HQ) as (k1 & tr1 & s1 & E1 & O1). destruct (C2 m e s1 tr Hm Hb HQ) as (k2 & tr2 & s2 & E2 & O2).
      destruct (C3 m e s2 tr Hm Hb HQ) as (k3 & tr3 & s3 & E3 & O3).
      exists (KIte k1 k2 k3), (union tr2 tr3), s3. split; [rewrite c_ite, E1, E2, E3; reflexivity|].
      apply (holds_imp (holds_and (holds_and O1 O2) O3)).
      intros defs [[R1 R2] R3]. apply runs_as_S. intros fuel c E v HI. rewrite (sem_ite HE). cbn [Run.run]. rewrite (R1 fuel c E v HI).
      apply sbind_ext. intros y. destruct (as_bool y); [exact (R2 fuel c E v HI)|exact (R3 fuel c E v HI)].
    Qed.

    Lemma compiles_path t ps : compiles M b Q n t -> compiles_parts M b Q n ps -> compiles M b Q (S n) (PPath t ps).
    Proof.
      intros C1 C2. apply compiles_S. intros m e s tr Hm Hb HQ.
      destruct (C1 m e s [] Hm Hb HQ) as (k1 & tr1 & s1 & E1 & O1). destruct (C2 m e s1 Hm Hb HQ) as (cps & s2 & E2 & O2).
      exists (KPath k1 cps), [], s2. split; [rewrite c_path; unfold iterm; rewrite E1, E2; reflexivity|]. apply (holds_imp (holds_and O1 O2)).
      intros defs [R1 R2]. exact (runs_path _ _ _ _ _ _ R1 R2).
    Qed.

    (** [pr] is [None] for reduce, [Some None] for foreach without a projection, [Some (Some (proj, k4))] for foreach with the
        projection [proj] compiled to [k4] *)
    Lemma fold_runs e x k1 k2 k3 xs init upd (pr : option (option (pterm * term))) defs :
      runs_as M e k1 xs defs -> runs_as M e k2 init defs -> runs_as M (push_var (CVar x) e) k3 upd defs ->
      match pr with Some (Some (proj, k4)) => runs_as M (push_var (CVar x) e) k4 proj defs | _ => True end ->
      forall fuel c E v, Inv M defs fuel e c E ->
        run defs (S fuel) (KFold k1 PatVar k2 k3 match pr with None => Reduce | Some None => Foreach None | Some (Some (_, k4)) => Foreach (Some k4) end) c v
        = sbind (Sem M fuel init E (labels c) v)
            (sfold (fun y acc => Sem M fuel upd (bindv M x y E) (labels c) acc)
                   match pr with
                   | None => fun _ _ => SNil
                   | Some None => fun _ z => sone z
                   | Some (Some (proj, _)) => fun y z => Sem M fuel proj (bindv M x y E) (labels c) z
                   end
                   match pr with None => sone | Some _ => fun _ => SNil end
                   match fuel with O => SBot | S f => Sem M f xs E (labels c) v end).
    Proof.
      intros R1 R2 R3 R4 fuel c E v HI. rewrite run_fold, run_and_bind_var, (R2 fuel c E v HI). apply sbind_ext. intros i0.
      destruct fuel as [|f]; [reflexivity|]. rewrite (R1 f c E v (inv_pred HM _ _ _ _ _ HI)).
      apply fold_ctx_vals.
      - intros y acc. exact (R3 (S f) (cons_var y c) _ acc (inv_bindv HM _ _ _ _ _ x y HI)).
      - intros y z. destruct pr as [[[proj k4]|]|]; [|reflexivity|reflexivity]. exact (R4 (S f) (cons_var y c) _ z (inv_bindv HM _ _ _ _ _ x y HI)).
      - intros acc. destruct pr as [[[proj k4]|]|]; reflexivity.
    Qed.

    Definition fold_shape (name : bytes) (rest : list pterm) : Prop :=
      match rest with [] => name = name_reduce \/ name = name_foreach | [_] => name = name_foreach | _ => False end.
    Lemma compiles_fold name xs x init upd rest : fold_shape name rest ->
      compiles M b Q n xs -> compiles M b Q (S n) init -> compiles M (CVar x :: b) Q (S n) upd -> Forall (compiles M (CVar x :: b) Q (S n)) rest ->
      compiles M b Q (S (S n)) (PFold name xs (PPVar x) (init :: upd :: rest)).
    Proof.
      intros Hsh C1 C2 C3 C4 m e s tr Hm Hb HQ. destruct m as [|[|m]]; try lia. pose proof (in_scope_push b e (CVar x) Hb) as Hb'.
      destruct (C1 (S m) e s [] ltac:(lia) Hb HQ) as (k1 & tr1 & s1 & E1 & O1). destruct (C2 (S m) e s1 [] ltac:(lia) Hb HQ) as (k2 & tr2 & s2 & E2 & O2).
      destruct (C3 (S m) (push_var (CVar x) e) s2 [] ltac:(lia) Hb' HQ) as (k3 & tr3 & s3 & E3 & O3).
      pose proof (holds_and (holds_and O1 O2) O3) as O.
      rewrite c_fold. unfold iterm. rewrite E1, c_pat_var, E2. cbn [pat_vars_f]. change (Compile.with_vars [x] e) with (push_var (CVar x) e). rewrite E3.
      destruct rest as [|proj [|]]; [destruct Hsh as [-> | ->]| |contradiction].
      - exists (KFold k1 PatVar k2 k3 Reduce), [], s3. split; [reflexivity|]. apply (holds_imp O).
        intros defs [[R1 R2] R3]. apply runs_as_S. intros fuel c E v HI. rewrite (sem_fold HE).
        exact (fold_runs e x k1 k2 k3 xs init upd None defs R1 R2 R3 I fuel c E v HI).
      - exists (KFold k1 PatVar k2 k3 (Foreach None)), [], s3. split; [reflexivity|]. apply (holds_imp O).
        intros defs [[R1 R2] R3]. apply runs_as_S. intros fuel c E v HI. rewrite (sem_fold HE).
        exact (fold_runs e x k1 k2 k3 xs init upd (Some None) defs R1 R2 R3 I fuel c E v HI).
      - cbn [fold_shape] in Hsh. subst name. inversion C4 as [|? ? C5 _]; subst.
        destruct (C5 (S m) (push_var (CVar x) e) s3 tr ltac:(lia) Hb' HQ) as (k4 & tr4 & s4 & E4 & O4). rewrite E4.
        exists (KFold k1 PatVar k2 k3 (Foreach (Some k4))), tr4, s4. split; [reflexivity|]. apply (holds_imp (holds_and O O4)).
        intros defs [[[R1 R2] R3] R4]. apply runs_as_S. intros fuel c E v HI. rewrite (sem_fold HE).
        exact (fold_runs e x k1 k2 k3 xs init upd (Some (Some (proj, k4))) defs R1 R2 R3 R4 fuel c E v HI).
    Qed.
    Lemma compiles_reduce xs x init upd :
      compiles M b Q n xs -> compiles M b Q (S n) init -> compiles M (CVar x :: b) Q (S n) upd ->
      compiles M b Q (S (S n)) (PFold name_reduce xs (PPVar x) [init; upd]).
    Proof. intros. apply compiles_fold; [left; reflexivity|assumption..|constructor]. Qed.
    Lemma compiles_foreach xs x init upd :
      compiles M b Q n xs -> compiles M b Q (S n) init -> compiles M (CVar x :: b) Q (S n) upd ->
      compiles M b Q (S (S n)) (PFold name_foreach xs (PPVar x) [init; upd]).
    Proof. intros. apply compiles_fold; [right; reflexivity|assumption..|constructor]. Qed.
    Lemma compiles_foreach3 xs x init upd proj :
      compiles M b Q n xs -> compiles M b Q (S n) init -> compiles M (CVar x :: b) Q (S n) upd -> compiles M (CVar x :: b) Q (S n) proj ->
      compiles M b Q (S (S n)) (PFold name_foreach xs (PPVar x) [init; upd; proj]).
    Proof. intros. apply compiles_fold; [reflexivity|assumption..|constructor; [assumption|constructor]]. Qed.

    (** what the body and the term after the definition need of the functions in scope ([Q1], [Q3]), and that the compiled
        term computes the semantics of the whole given the entry and the two compiled parts, is each proof's own *)
    Lemma compiles_def b1 (Q1 Q3 : list fentry -> Prop) f ps body t :
      Ext M = table_extends -> Cov M = table_covers ->
      (forall e id, in_scope b e -> Q (e_funs e) -> in_scope b1 (push_parent f ps id e) /\ Q1 (e_funs (push_parent f ps id e))) ->
      (forall e id trb, Q (e_funs e) -> Q3 (e_funs (push_sibling f (map is_var_name ps) id trb e))) ->
      compiles M b1 Q1 n body -> compiles M b Q3 (S n) t ->
      (forall e id kb k trb defs, nth_error defs id = Some kb ->
         runs_as M (push_parent f ps id e) kb body defs -> runs_as M (push_sibling f (map is_var_name ps) id trb e) k t defs ->
         runs_as M e k (PDef [PDefn f ps body] t) defs) ->
      compiles M b Q (S (S n)) (PDef [PDefn f ps body] t).
    Proof.
      intros EE EC Hbody Hsib Cb Ct Hrun m e s tr Hm Hb HQ. destruct m as [|[|m]]; try lia.
      destruct (Hbody e (length (c_defs s)) Hb HQ) as [Hb1 HQ1].
      destruct (Cb m _ {| c_defs := c_defs s ++ [KId]; c_errs := c_errs s |} (length (c_defs s) :: tr) ltac:(lia) Hb1 HQ1) as (kb & trb & s2 & E2 & X2 & R2).
      destruct (Ct (S m) (push_sibling f (map is_var_name ps) (length (c_defs s)) trb e) (set_def (length (c_defs s)) kb s2) tr ltac:(lia) Hb (Hsib e _ trb HQ)) as (k & trr & s4 & E4 & X4 & R4).
      rewrite EE in X2, X4. rewrite EC in R2, R4. destruct (def_table s kb s2 s4 X2 X4) as [X HT].
      exists k, trr, s4. split; [rewrite c_def1; cbv zeta; rewrite E2; exact E4|]. unfold holds. rewrite EE, EC. split; [exact X|]. intros defs Hc.
      destruct (HT defs Hc) as (Hdid & Hc12 & Hc34). exact (Hrun e _ kb k trb defs Hdid (R2 defs Hc12) (R4 defs Hc34)).
    Qed.

    Lemma compiles_args_nil (binds_as : args_rel) : (forall e defs, binds_as e [] [] defs) -> compiles_args M binds_as b Q n [].
    Proof. intros H m e s _ _ _. exists [], s. split; [reflexivity|]. split; [reflexivity|]. apply holds_ret. apply H. Qed.
    Lemma compiles_args_cons (binds_as : args_rel) a r :
      (forall e k cr defs, runs_as M e k a defs -> binds_as e r cr defs -> binds_as e (a :: r) (k :: cr) defs) ->
      compiles M b Q n a -> compiles_args M binds_as b Q n r -> compiles_args M binds_as b Q n (a :: r).
    Proof.
      intros H Ca Cr m e s Hm Hb HQ.
      destruct (Ca m e s [] Hm Hb HQ) as (k1 & tr1 & s1 & E1 & O1). destruct (Cr m e s1 Hm Hb HQ) as (cr & s2 & E2 & L2 & O2).
      exists (k1 :: cr), s2. split; [cbn [c_args]; unfold iterm; rewrite E1, E2; reflexivity|]. split; [cbn [length]; congruence|].
      apply (holds_imp (holds_and O1 O2)). intros defs [R1 R2]. exact (H e k1 cr defs R1 R2).
    Qed.
    (** that the compiled call computes the semantics of the call, given what it was compiled to ([call_of]) and how its
        arguments are bound, is each proof's own *)
    Lemma compiles_call (binds_as : args_rel) f args :
      (forall e, Q (e_funs e) -> exists fe, find_fun f (length args) (e_funs e) = Some fe) ->
      compiles_args M binds_as b Q n args ->
      (forall e cargs fe k defs, find_fun f (length args) (e_funs e) = Some fe -> length cargs = length args ->
         call_of e fe cargs k -> binds_as e args cargs defs -> runs_as M e k (PCall f args) defs) ->
      compiles M b Q (S n) (PCall f args).
    Proof.
      intros Hf Ca Hrun. apply compiles_S. intros m e s tr Hm Hb HQ.
      destruct (Hf e HQ) as (fe & Hfe). destruct (Ca m e s Hm Hb HQ) as (cargs & s1 & EA & LA & OA).
      destruct (local_call_found e f cargs tr fe ltac:(rewrite LA; exact Hfe)) as (k0 & tr0 & LC & LK).
      exists k0, tr0, s1. split; [rewrite c_call, EA; unfold call; rewrite LC; reflexivity|]. apply (holds_imp OA).
      intros defs RA. exact (Hrun e cargs fe k0 defs Hfe LA LK RA).
    Qed.

    Lemma compiles_parts_nil : compiles_parts M b Q n [].
    Proof.
      intros m e s Hm _ _. exists [], s. split; [reflexivity|]. apply holds_ret. apply explodes_nil.
    Qed.
    Definition opt_ok (o : option pterm) : Prop := match o with Some t => compiles M b Q n t | None => True end.
    Lemma compiles_opt o : opt_ok o -> forall m e s, (n <= m)%nat -> in_scope b e -> Q (e_funs e) ->
      exists ko s', c_opt g m e s o = (ko, s') /\ holds M s s' (opt_runs_as e ko o).
    Proof.
      intros C m e s Hm Hb HQ. destruct o as [t|].
      - destruct (C m e s [] Hm Hb HQ) as (k & trr & s' & E1 & O1). exists (Some k), s'. split; [cbn [c_opt]; unfold iterm; rewrite E1; reflexivity|exact O1].
      - exists None, s. split; [reflexivity|]. apply holds_ret. intros defs. exact I.
    Qed.
    Lemma compiles_parts_cons p o ps :
      match p with PIndex i => compiles M b Q n i | PRange f u => opt_ok f /\ opt_ok u end ->
      compiles_parts M b Q n ps -> compiles_parts M b Q n ((p, o) :: ps).
    Proof.
      intros Cp Cps m e s Hm Hb HQ. destruct p as [i|f u].
      - destruct (Cp m e s [] Hm Hb HQ) as (k1 & tr1 & s1 & E1 & O1). destruct (Cps m e s1 Hm Hb HQ) as (cps & s2 & E2 & O2).
        exists ((Index k1, o) :: cps), s2. split; [cbn [c_parts]; unfold iterm; rewrite E1, E2; reflexivity|]. apply (holds_imp (holds_and O1 O2)).
        intros defs [R1 R2]. exact (explodes_cons e (Index k1) (PIndex i) o _ _ defs R1 R2).
      - destruct Cp as [Cf Cu]. destruct (compiles_opt f Cf m e s Hm Hb HQ) as (kf & s1 & E1 & O1).
        destruct (compiles_opt u Cu m e s1 Hm Hb HQ) as (ku & s2 & E2 & O2). destruct (Cps m e s2 Hm Hb HQ) as (cps & s3 & E3 & O3).
        exists ((Range kf ku, o) :: cps), s3. split; [cbn [c_parts]; rewrite E1, E2, E3; reflexivity|].
        apply (holds_imp (holds_and (holds_and O1 O2) O3)).
        intros defs [[R1 R2] R3]. exact (explodes_cons e (Range kf ku) (PRange f u) o _ _ defs (conj R1 R2) R3).
    Qed.
  End Constructs.
End Sim.
Arguments sem_eqs : clear implicits.
Arguments sim_ok : clear implicits.
Arguments runs_as : clear implicits.
Arguments explodes_as : clear implicits.
Arguments compiles : clear implicits.
Arguments compiles_parts : clear implicits.
Arguments compiles_args : clear implicits.

Definition bind_kind (x : cbind) (a : bind) : Prop :=
  match x, a with CVar _, BVar _ | CLabel _, BLabel _ => True | _, _ => False end.
Definition agrees_pos (e : env) (c : ctx) (rho : list (cbind * bind)) : Prop :=
  map fst rho = e_vars e /\ (exists rest, vars c = map snd rho ++ rest) /\ Forall (fun p => bind_kind (fst p) (snd p)) rho.

Lemma agrees_pos_lookup e c rho x i : agrees_pos e c rho -> index_of x (e_vars e) 0 = Some i ->
  exists a, nth_error (vars c) i = Some a /\ nlookup rho x = Some a /\ bind_kind x a.
Proof.
  intros (Hm & (rest & Hv) & Hk) H. rewrite <- Hm in H. destruct (lookup_index rho x i H) as (a & Hn & Hl & Hin).
  exists a. split; [|split; [exact Hl|]].
  - rewrite Hv. rewrite nth_error_app1; [exact Hn|]. apply nth_error_Some. congruence.
  - rewrite Forall_forall in Hk. apply (Hk (x, a) Hin).
Qed.
Lemma agrees_pos_var e c rho x i : agrees_pos e c rho -> index_of (CVar x) (e_vars e) 0 = Some i ->
  exists a, nth_error (vars c) i = Some (BVar a) /\ nlookup rho (CVar x) = Some (BVar a).
Proof. intros H Hi. destruct (agrees_pos_lookup e c rho _ i H Hi) as ([a|l|t vs] & Hn & Hl & []). eauto. Qed.
Lemma agrees_pos_label e c rho x i : agrees_pos e c rho -> index_of (CLabel x) (e_vars e) 0 = Some i ->
  exists l, nth_error (vars c) i = Some (BLabel l) /\ nlookup rho (CLabel x) = Some (BLabel l).
Proof. intros H Hi. destruct (agrees_pos_lookup e c rho _ i H Hi) as ([a|l|t vs] & Hn & Hl & []). eauto. Qed.
Lemma agrees_pos_push e (c c' : ctx) rho x a :
  vars c' = a :: vars c -> bind_kind x a -> agrees_pos e c rho -> agrees_pos (push_var x e) c' ((x, a) :: rho).
Proof.
  intros Hv Hk (Hm & (rest & Hr) & Hf). split; [|split].
  - cbn [map fst push_var e_vars]. rewrite Hm. reflexivity.
  - exists rest. rewrite Hv, Hr. reflexivity.
  - constructor; assumption.
Qed.

(** last parameter first, as the context holds them *)
Section Params.
  Context {B : Type} (mk : val -> B).
  Definition bind_params (ps : list bytes) (ys : list val) : list (cbind * B) := rev (combine (map CVar ps) (map mk ys)).
  Lemma bind_params_fst ps ys : length ys = length ps -> map fst (bind_params ps ys) = map CVar (rev ps).
  Proof. intros H. unfold bind_params. rewrite !map_rev. f_equal. apply map_fst_combine. rewrite !map_length. congruence. Qed.
  Lemma bind_params_snd ps ys : length ys = length ps -> map snd (bind_params ps ys) = map mk (rev ys).
  Proof. intros H. unfold bind_params. rewrite !map_rev. f_equal. apply map_snd_combine. rewrite !map_length. congruence. Qed.
  Lemma bind_params_all (P : cbind * B -> Prop) ps ys : (forall x y, P (CVar x, mk y)) -> Forall P (bind_params ps ys).
  Proof. intros H. apply Forall_rev. revert ys. induction ps as [|p ps IH]; intros [|y ys]; cbn; constructor; [apply H|apply IH]. Qed.
End Params.

(** the simulation over environments that [agrees_pos] with the context, with some [phi : F] beside them that the invariant
    ties to the functions of the compile-time environment by [funs] *)
Section Positional.
  Context {d : val -> bytes} {nr : nat -> bytes -> list narg -> val -> option (str val)} {F : Type}.
  Variable sem : nat -> pterm -> list (cbind * bind) -> F -> nat -> val -> str val.
  Variable sexplode : nat -> list (ppart * bool) -> list (cbind * bind) -> F -> nat -> val -> str (list (vpart * bool)).
  Variable funs : list term -> nat -> list fentry -> list (cbind * bind) -> F -> Prop.

  Definition pos_sim : sim :=
    {| NE := list (cbind * bind) * F;
       Sem := fun n t E => sem n t (fst E) (snd E); SemX := fun n ps E => sexplode n ps (fst E) (snd E);
       bindv := fun x y E => ((CVar x, BVar y) :: fst E, snd E); bindl := fun x l E => ((CLabel x, BLabel l) :: fst E, snd E);
       Inv := fun defs fuel e c E => agrees_pos e c (fst E) /\ funs defs fuel (e_funs e) (fst E) (snd E);
       Ext := table_extends; Cov := table_covers |}.

  Hypothesis sem_eq : sem_eqs d pos_sim.
  Hypothesis sem_var : forall n x rho phi lab v,
    sem (S n) (PVar x) rho phi lab v = match nlookup rho (CVar x) with Some (BVar a) => sone a | _ => SUnk end.
  Hypothesis sem_break : forall n x rho phi lab v,
    sem (S n) (PBreak x) rho phi lab v = match nlookup rho (CLabel x) with Some (BLabel l) => SExn (XBreak l) | _ => SUnk end.
  Hypothesis funs_pred : forall defs fuel fes rho phi, funs defs (S fuel) fes rho phi -> funs defs fuel fes rho phi.
  Hypothesis funs_push : forall defs fuel fes rho phi xa, funs defs fuel fes rho phi -> funs defs fuel fes (xa :: rho) phi.

  Lemma pos_sim_ok : sim_ok d nr pos_sim.
  Proof.
    split; cbn [pos_sim NE Sem SemX bindv bindl Inv Ext Cov fst snd].
    - exact sem_eq.
    - exact extends_refl.
    - exact extends_trans.
    - exact covers_left.
    - exact covers_right.
    - intros defs fuel e c E [Hag Hfr]. split; [exact Hag|apply funs_pred; exact Hfr].
    - intros defs fuel e c E x y [Hag Hfr]. split; [apply (agrees_pos_push e c); [reflexivity|exact I|exact Hag]|apply funs_push; exact Hfr].
    - intros defs fuel e c E x [Hag Hfr]. split; [apply (agrees_pos_push e c); [reflexivity|exact I|exact Hag]|apply funs_push; exact Hfr].
    - intros defs fuel e c E x i v [Hag _] Ei. destruct fuel as [|fuel]; [symmetry; apply (sem_0 sem_eq)|]. rewrite sem_var. cbn [Run.run].
      destruct (agrees_pos_var e c _ x i Hag Ei) as (a & Hn & Hl). unfold nth_bind. rewrite Hn, Hl. reflexivity.
    - intros defs fuel e c E x i v [Hag _] Ei. destruct fuel as [|fuel]; [symmetry; apply (sem_0 sem_eq)|]. rewrite sem_break. cbn [Run.run].
      destruct (agrees_pos_label e c _ x i Hag Ei) as (l & Hn & Hl). unfold nth_bind. rewrite Hn, Hl. reflexivity.
  Qed.
End Positional.
