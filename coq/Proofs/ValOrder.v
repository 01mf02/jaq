(** The order of values ([impl Ord for Val], Val/Val.v [cmp_f]) is a total preorder on nested values - arrays compared
    lexicographically, objects by their sorted keys and then the values in that order - whenever it is one on the numbers that
    occur: lifted from numbers to all values by induction over the nesting. *)
From Coq Require Import ZArith List Lia Sorting.Permutation.
From JaqV Require Import Base.Bytes Base.F64 Val.Num Val.Val Proofs.ValInd Proofs.F64Order Proofs.OfZExact Proofs.NumExact.
Import ListNotations.

Lemma cmp_by_le (x y : comparison) : (x <> Gt <-> y <> Gt) -> (CompOpp x <> Gt <-> CompOpp y <> Gt) -> x = y.
Proof. destruct x, y; cbn; intuition congruence. Qed.

Section TP.
  Context {A : Type}.
  Variable c : A -> A -> comparison.
  Variable P : A -> Prop.

  Record tpo : Prop := {
    tp_refl : forall a, P a -> c a a = Eq;
    tp_anti : forall a b, P a -> P b -> c b a = CompOpp (c a b);
    tp_le : forall a b d, P a -> P b -> P d -> c a b <> Gt -> c b d <> Gt -> c a d <> Gt }.

  Hypothesis H : tpo.

  Lemma tp_eq_sym a b : P a -> P b -> c a b = Eq -> c b a = Eq.
  Proof. intros Pa Pb E. rewrite (tp_anti H a b Pa Pb), E. reflexivity. Qed.

  (** equivalent elements compare alike with everything *)
  Lemma tp_cong_l a b d : P a -> P b -> P d -> c a b = Eq -> c a d = c b d.
  Proof.
    intros Pa Pb Pd E. pose proof (tp_eq_sym a b Pa Pb E) as E'.
    apply cmp_by_le; rewrite <- ?(tp_anti H) by assumption; split; intros L.
    - apply (tp_le H b a d); congruence.
    - apply (tp_le H a b d); congruence.
    - apply (tp_le H d a b); congruence.
    - apply (tp_le H d b a); congruence.
  Qed.

  Lemma tp_lt_le a b d : P a -> P b -> P d -> c a b = Lt -> c b d <> Gt -> c a d = Lt.
  Proof.
    intros Pa Pb Pd E L. assert (L1 : c a d <> Gt) by (apply (tp_le H a b d); congruence).
    destruct (c a d) eqn:Ead; try reflexivity; try congruence. exfalso.
    (* d <= a, so b <= a *)
    apply (tp_le H b d a Pb Pd Pa L).
    - rewrite (tp_anti H a d), Ead by assumption. discriminate.
    - rewrite (tp_anti H a b), E by assumption. reflexivity.
  Qed.

  Lemma tp_le_lt a b d : P a -> P b -> P d -> c a b <> Gt -> c b d = Lt -> c a d = Lt.
  Proof.
    intros Pa Pb Pd L E. assert (L1 : c a d <> Gt) by (apply (tp_le H a b d); congruence).
    destruct (c a d) eqn:Ead; try reflexivity; try congruence. exfalso.
    (* a ~ d, so a compares with b as d does: greater *)
    rewrite (tp_cong_l a d b Pa Pd Pb Ead), (tp_anti H b d Pb Pd), E in L. apply L. reflexivity.
  Qed.

  Lemma lex_refl l : Forall P l -> lex_cmp c l l = Eq.
  Proof. induction 1 as [|a l Pa _ IH]; [reflexivity|]. cbn [lex_cmp]. rewrite (tp_refl H a Pa). exact IH. Qed.

  Lemma lex_anti x : forall y, Forall P x -> Forall P y -> lex_cmp c y x = CompOpp (lex_cmp c x y).
  Proof.
    induction x as [|a x IH]; intros [|b y] Hx Hy; try reflexivity. inversion Hx; inversion Hy; subst.
    cbn [lex_cmp]. rewrite (tp_anti H a b) by assumption. destruct (c a b); cbn [CompOpp]; try reflexivity. apply IH; auto.
  Qed.

  Lemma lex_le x : forall y z, Forall P x -> Forall P y -> Forall P z ->
    lex_cmp c x y <> Gt -> lex_cmp c y z <> Gt -> lex_cmp c x z <> Gt.
  Proof.
    induction x as [|a x IH]; intros [|b y] [|d z] Hx Hy Hz L1 L2; cbn [lex_cmp] in *; try congruence; try discriminate.
    inversion Hx; inversion Hy; inversion Hz; subst.
    destruct (c a b) eqn:Eab; [| |congruence].
    - rewrite (tp_cong_l a b d) by assumption. destruct (c b d) eqn:Ebd; [|discriminate|congruence]. apply (IH y z); assumption.
    - assert (c b d <> Gt) by (destruct (c b d); congruence).
      rewrite (tp_lt_le a b d) by assumption. discriminate.
  Qed.

End TP.

Theorem lex_tpo {A} (c : A -> A -> comparison) P : tpo c P -> tpo (lex_cmp c) (Forall P).
Proof.
  intros H. constructor.
  - apply (lex_refl c P H).
  - intros a b Ha Hb. apply (lex_anti c P H); assumption.
  - intros a b d Ha Hb Hd. apply (lex_le c P H); assumption.
Qed.

Lemma tpo_pullback {A B} (c : B -> B -> comparison) (Q : B -> Prop) (f : A -> B) (c' : A -> A -> comparison) (P : A -> Prop) :
  tpo c Q -> (forall a, P a -> Q (f a)) -> (forall a b, P a -> P b -> c' a b = c (f a) (f b)) -> tpo c' P.
Proof.
  intros H HP E. constructor.
  - intros a Pa. rewrite E by assumption. apply (tp_refl _ _ H). auto.
  - intros a b Pa Pb. rewrite !E by assumption. apply (tp_anti _ _ H); auto.
  - intros a b d Pa Pb Pd. rewrite !E by assumption. apply (tp_le _ _ H); auto.
Qed.

Lemma z_tpo : tpo Z.compare (fun _ => True).
Proof.
  constructor.
  - intros a _. apply Z.compare_refl.
  - intros a b _ _. apply Z.compare_antisym.
  - intros a b d _ _ _. rewrite !Z.compare_gt_iff. lia.
Qed.

Lemma key_tpo {A} (c : A -> A -> comparison) (P : A -> Prop) (k : A -> Z) :
  (forall x y, P x -> P y -> c x y = Z.compare (k x) (k y)) -> tpo c P.
Proof. apply (tpo_pullback _ _ k _ _ z_tpo). auto. Qed.

Lemma bytes_cmp_lex x : forall y, bytes_cmp x y = lex_cmp (fun a b => Z.compare (bz a) (bz b)) x y.
Proof. induction x as [|a x IH]; intros [|b y]; try reflexivity. cbn [bytes_cmp lex_cmp]. rewrite IH. reflexivity. Qed.

Lemma bytes_tpo : tpo bytes_cmp (fun _ => True).
Proof.
  apply (tpo_pullback _ _ id _ _ (lex_tpo _ _ (key_tpo _ (fun _ => True) bz (fun _ _ _ _ => eq_refl)))).
  - intros a _. apply Forall_forall. auto.
  - intros a b _ _. apply bytes_cmp_lex.
Qed.

Lemma bool_tpo : tpo bool_cmp (fun _ => True).
Proof. apply (key_tpo _ _ Z.b2z). intros [] [] _ _; reflexivity. Qed.

(** the ordinal sum of two orders: everything on the left before everything on the right *)
Definition sum_cmp {A B} (cA : A -> A -> comparison) (cB : B -> B -> comparison) (x y : A + B) : comparison :=
  match x, y with
  | inl a, inl a' => cA a a' | inl _, inr _ => Lt | inr _, inl _ => Gt | inr b, inr b' => cB b b'
  end.
Definition sum_ok {A B} (P : A -> Prop) (Q : B -> Prop) (x : A + B) : Prop := match x with inl a => P a | inr b => Q b end.

Lemma sum_tpo {A B} (cA : A -> A -> comparison) (cB : B -> B -> comparison) P Q :
  tpo cA P -> tpo cB Q -> tpo (sum_cmp cA cB) (sum_ok P Q).
Proof.
  intros HA HB. constructor.
  - intros [a|b]; [apply (tp_refl _ _ HA)|apply (tp_refl _ _ HB)].
  - intros [a|b] [a'|b']; try reflexivity; [apply (tp_anti _ _ HA)|apply (tp_anti _ _ HB)].
  - intros [a|b] [a'|b'] [a''|b'']; cbn; try congruence; [apply (tp_le _ _ HA)|apply (tp_le _ _ HB)].
Qed.

Lemma insert_by_perm {A} (c : A -> A -> comparison) a l : Permutation (a :: l) (insert_by c a l).
Proof.
  induction l as [|b r IH]; cbn [insert_by]; [reflexivity|]. destruct (c a b); try reflexivity.
  rewrite perm_swap. apply perm_skip. exact IH.
Qed.

Lemma sort_by_perm {A} (c : A -> A -> comparison) l : Permutation l (sort_by c l).
Proof.
  induction l as [|a l IH]; [reflexivity|]. cbn [sort_by fold_right]. fold (sort_by c l).
  rewrite <- insert_by_perm. apply perm_skip. exact IH.
Qed.

Section EXT.
  Context {A : Type} (c c' : A -> A -> comparison) (P : A -> Prop).
  Hypothesis E : forall a b, P a -> P b -> c a b = c' a b.

  Lemma insert_by_ext a l : P a -> Forall P l -> insert_by c a l = insert_by c' a l.
  Proof.
    intros Pa. induction 1 as [|b r Qb _ IH]; [reflexivity|]. cbn [insert_by]. rewrite <- (E a b Pa Qb), IH. reflexivity.
  Qed.

  Lemma lex_ext x : forall y, Forall P x -> Forall P y -> lex_cmp c x y = lex_cmp c' x y.
  Proof.
    induction x as [|a x IH]; intros [|b y] Hx Hy; try reflexivity. inversion Hx; inversion Hy; subst.
    cbn [lex_cmp]. rewrite <- E, IH by assumption. reflexivity.
  Qed.
End EXT.

Lemma sort_by_ext {A} (c c' : A -> A -> comparison) (P : A -> Prop) l :
  (forall a b, P a -> P b -> c a b = c' a b) -> Forall P l -> sort_by c l = sort_by c' l.
Proof.
  intros E. induction 1 as [|a l Pa Pl IH]; [reflexivity|]. cbn [sort_by fold_right]. fold (sort_by c l) (sort_by c' l).
  rewrite <- IH. apply (insert_by_ext _ _ P E); [exact Pa|]. exact (Permutation_Forall (sort_by_perm c l) Pl).
Qed.

(** objects compare as the pair (sorted keys, values in that order) *)
Definition srt (n : nat) (o : obj) : obj := sort_by (fun p q => cmp_f n (fst p) (fst q)) o.
Definition okey (n : nat) (o : obj) : list (list val) := [map fst (srt n o); map snd (srt n o)].

Lemma obj_cmp_eq n a b : cmp_f (S n) (Obj a) (Obj b) = lex_cmp (lex_cmp (cmp_f n)) (okey n a) (okey n b).
Proof.
  (* a non-empty object has a non-empty list of sorted keys *)
  assert (NE : forall p o, exists h t, srt n (p :: o) = h :: t).
  { intros p o. unfold srt. cbn [sort_by fold_right]. destruct (fold_right _ _ o) as [|q r]; cbn [insert_by]; [eauto|].
    destruct (cmp_f n (fst p) (fst q)); eauto. }
  cbn [cmp_f]. unfold okey. fold (srt n a) (srt n b). destruct a as [|p a], b as [|q b].
  - reflexivity.
  - destruct (NE q b) as (h & t & ->). reflexivity.
  - destruct (NE p a) as (h & t & ->). reflexivity.
  - cbn [lex_cmp]. destruct (lex_cmp (cmp_f n) (map fst (srt n (p :: a))) (map fst (srt n (q :: b)))); try reflexivity.
    destruct (lex_cmp (cmp_f n) (map snd (srt n (p :: a))) (map snd (srt n (q :: b)))); reflexivity.
Qed.

Lemma okey_forall (P : val -> Prop) n o : Forall (fun kv => P (fst kv) /\ P (snd kv)) o -> Forall (Forall P) (okey n o).
Proof.
  intros H. apply (Permutation_Forall (sort_by_perm _ o : Permutation o (srt n o))), Forall_and_inv in H.
  unfold okey. repeat constructor; apply Forall_map, H.
Qed.

Section LIFT.
  Variable N : num -> Prop.
  Hypothesis HN : tpo num_cmp N.

  Inductive vok : val -> Prop :=
  | ok_null : vok Null
  | ok_bool b : vok (Bool b)
  | ok_num x : N x -> vok (Num x)
  | ok_tstr s : vok (TStr s)
  | ok_bstr s : vok (BStr s)
  | ok_arr a : Forall vok a -> vok (Arr a)
  | ok_obj o : Forall (fun kv => vok (fst kv) /\ vok (snd kv)) o -> vok (Obj o).

  Definition cls (n : nat) (v : val) : Prop := vok v /\ (depth v < n)%nat.

  (** a value is of one of six kinds, ordered as listed; the two kinds of strings compare as one *)
  Definition kind (n : nat) (v : val) : unit + (bool + (num + (bytes + (list val + list (list val))))) :=
    match v with
    | Null => inl tt
    | Bool b => inr (inl b)
    | Num x => inr (inr (inl x))
    | BStr s | TStr s => inr (inr (inr (inl s)))
    | Arr a => inr (inr (inr (inr (inl a))))
    | Obj o => inr (inr (inr (inr (inr (okey n o)))))
    end.
  Definition kind_cmp (n : nat) :=
    sum_cmp (fun _ _ : unit => Eq) (sum_cmp bool_cmp (sum_cmp num_cmp (sum_cmp bytes_cmp
      (sum_cmp (lex_cmp (cmp_f n)) (lex_cmp (lex_cmp (cmp_f n))))))).
  Definition kind_ok (n : nat) :=
    sum_ok (fun _ : unit => True) (sum_ok (fun _ : bool => True) (sum_ok N (sum_ok (fun _ : bytes => True)
      (sum_ok (Forall (cls n)) (Forall (Forall (cls n))))))).

  Lemma cmp_kind n x y : cmp_f (S n) x y = kind_cmp n (kind n x) (kind n y).
  Proof. destruct x, y; try reflexivity. apply obj_cmp_eq. Qed.

  Lemma cls_kind n v : cls (S n) v -> kind_ok n (kind n v).
  Proof.
    intros [Hv Hd]. inversion Hv as [| |x Hx| | |a Ha|o Ho]; subst; try exact I.
    - exact Hx.
    - apply Forall_and; [exact Ha|apply depth_arr; exact Hd].
    - apply okey_forall. eapply Forall_impl; [|exact (Forall_and Ho (depth_obj n o Hd))]. cbv beta. unfold cls. tauto.
  Qed.

  Lemma cmp_tpo n : tpo (cmp_f n) (cls n).
  Proof.
    induction n as [|n IH]; [constructor; [intros a [_ Ha]|intros a b [_ Ha]|intros a b d [_ Ha]]; lia|].
    apply (tpo_pullback (kind_cmp n) (kind_ok n) (kind n)); [|apply cls_kind|intros; apply cmp_kind].
    repeat apply sum_tpo.
    - apply (key_tpo _ _ (fun _ => 0%Z)). reflexivity.
    - exact bool_tpo.
    - exact HN.
    - exact bytes_tpo.
    - apply lex_tpo, IH.
    - apply lex_tpo, lex_tpo, IH.
  Qed.
End LIFT.

Lemma cmp_fuel n : forall m x y, (depth x < Nat.min n m)%nat -> (depth y < Nat.min n m)%nat -> cmp_f n x y = cmp_f m x y.
Proof.
  induction n as [|n IH]; intros [|m] x y Hx Hy; try (cbn [Nat.min] in Hx; lia). cbn [Nat.min] in Hx, Hy.
  set (D := fun v => (depth v < Nat.min n m)%nat).
  assert (E : forall a b, D a -> D b -> cmp_f n a b = cmp_f m a b) by (intros; apply IH; assumption).
  destruct x as [|b1|x1|s1|s1|l1|o1], y as [|b2|x2|s2|s2|l2|o2]; try reflexivity.
  - apply (lex_ext _ _ D E); apply depth_arr; assumption.
  - rewrite !obj_cmp_eq.
    assert (K : forall o, (depth (Obj o) < S (Nat.min n m))%nat -> okey n o = okey m o /\ Forall (Forall D) (okey m o)).
    { intros o Ho. apply depth_obj in Ho. split; [|apply okey_forall; exact Ho]. unfold okey, srt.
      rewrite (sort_by_ext _ (fun p q => cmp_f m (fst p) (fst q)) _ o (fun p q Hp Hq => E _ _ (proj1 Hp) (proj1 Hq)) Ho). reflexivity. }
    destruct (K o1 Hx) as [-> F1], (K o2 Hy) as [-> F2].
    apply (lex_ext _ _ (Forall D)); [|exact F1|exact F2]. intros u v Hu Hv. apply (lex_ext _ _ D E); assumption.
Qed.

Lemma val_cmp_fuel n x y : (depth x < n)%nat -> (depth y < n)%nat -> val_cmp x y = cmp_f n x y.
Proof. intros Hx Hy. apply cmp_fuel; lia. Qed.

Theorem val_cmp_tpo N : tpo num_cmp N -> tpo val_cmp (vok N).
Proof.
  intros HN. constructor.
  - intros a Ha. rewrite (val_cmp_fuel (S (depth a))) by lia. apply (tp_refl _ _ (cmp_tpo N HN _)). split; [exact Ha|lia].
  - intros a b Ha Hb. set (n := S (Nat.max (depth a) (depth b))).
    rewrite (val_cmp_fuel n a b), (val_cmp_fuel n b a) by (unfold n; lia).
    apply (tp_anti _ _ (cmp_tpo N HN n)); (split; [assumption|unfold n; lia]).
  - intros a b d Ha Hb Hd. set (n := S (Nat.max (depth a) (Nat.max (depth b) (depth d)))).
    rewrite (val_cmp_fuel n a b), (val_cmp_fuel n b d), (val_cmp_fuel n a d) by (unfold n; lia).
    apply (tp_le _ _ (cmp_tpo N HN n)); (split; [assumption|unfold n; lia]).
Qed.

Corollary val_trichotomy N : tpo num_cmp N -> forall a b, vok N a -> vok N b ->
  (val_cmp a b = Lt /\ val_cmp b a = Gt) \/ (val_cmp a b = Eq /\ val_cmp b a = Eq) \/ (val_cmp a b = Gt /\ val_cmp b a = Lt).
Proof.
  intros HN a b Ha Hb. pose proof (tp_anti _ _ (val_cmp_tpo N HN) a b Ha Hb) as E. destruct (val_cmp a b); rewrite E; cbn; auto.
Qed.

(** integers of any size, in either representation *)
Definition all_int (x : num) : Prop := exists z, int_val x = Some z.

Lemma int_tpo : tpo num_cmp all_int.
Proof.
  apply (key_tpo _ _ (fun x => match int_val x with Some z => z | None => 0%Z end)).
  intros x y (a & Ha) (b & Hb). rewrite Ha, Hb. apply num_cmp_ints; assumption.
Qed.

Theorem val_order_integers : tpo val_cmp (vok all_int).
Proof. apply val_cmp_tpo. exact int_tpo. Qed.

(** floats free of NaN *)
Definition all_float (x : num) : Prop := exists b, x = Flt b /\ nonan b.

(** the key of the float image; on NaN-free floats and small integers it decides the order *)
Definition mkey (x : num) : Z := nkey (to_f64 x).

Lemma float_tpo : tpo num_cmp all_float.
Proof. apply (key_tpo _ _ mkey). intros x y (f & -> & Hf) (g & -> & Hg). apply float_cmp_nkey; assumption. Qed.

Theorem val_order_floats : tpo val_cmp (vok all_float).
Proof. apply val_cmp_tpo. exact float_tpo. Qed.

(** ** integers next to floats: where the conversion is exact (below 2^53) the key of the float image decides *)
Local Open Scope Z_scope.
Definition exact_or_float (x : num) : Prop :=
  all_float x \/ exists z, (x = Int z \/ x = Big z) /\ Z.abs z < 2 ^ 53.

Lemma exact_key x y : exact_or_float x -> exact_or_float y -> num_cmp x y = Z.compare (mkey x) (mkey y).
Proof.
  assert (II : forall a b, Z.abs a < 2 ^ 53 -> Z.abs b < 2 ^ 53 -> Z.compare a b = Z.compare (nkey (of_Z a)) (nkey (of_Z b))).
  { intros a b Ha Hb. destruct (Z.compare_spec a b) as [->|L|L]; symmetry.
    - apply Z.compare_refl.
    - apply Z.compare_lt_iff. apply of_Z_key_mono; assumption.
    - apply Z.compare_gt_iff. apply of_Z_key_mono; assumption. }
  intros [(f & -> & Hf)|(a & Ea & Ha)] [(g & -> & Hg)|(b & Eb & Hb)].
  - apply float_cmp_nkey; assumption.
  - destruct (of_Z_exact_nonan b Hb) as [Nb Ib]. destruct Eb as [-> | ->]; unfold num_cmp; cbn [undec num_cmp_nd mkey to_f64].
    + apply float_cmp_nkey; assumption.
    + unfold big_float_cmp. rewrite Ib. cbn [andb]. rewrite (float_cmp_nkey _ _ Nb Hf). symmetry. apply Z.compare_antisym.
  - destruct (of_Z_exact_nonan a Ha) as [Na Ia]. destruct Ea as [-> | ->]; unfold num_cmp; cbn [undec num_cmp_nd mkey to_f64].
    + apply float_cmp_nkey; assumption.
    + unfold big_float_cmp. rewrite Ia. cbn [andb]. apply float_cmp_nkey; assumption.
  - destruct Ea as [-> | ->], Eb as [-> | ->]; unfold num_cmp; cbn [undec num_cmp_nd mkey to_f64]; apply II; assumption.
Qed.

Lemma exact_tpo : tpo num_cmp exact_or_float.
Proof. apply (key_tpo _ _ mkey). exact exact_key. Qed.

(** small integers (|z| <= 4096) and NaN-free floats together *)
Definition small_bound : Z := 4096.

Definition small_or_float (x : num) : Prop :=
  (exists b, x = Flt b /\ nonan b) \/ (exists z, (x = Int z \/ x = Big z) /\ - small_bound <= z <= small_bound).

Lemma small_is_exact x : small_or_float x -> exact_or_float x.
Proof. intros [F|(z & E & H)]; [left; exact F|right; exists z; split; [exact E|unfold small_bound in H; lia]]. Qed.

Lemma mixed_tpo : tpo num_cmp small_or_float.
Proof. exact (tpo_pullback _ _ (fun x => x) _ _ exact_tpo small_is_exact (fun _ _ _ _ => eq_refl)). Qed.

Theorem val_order_mixed : tpo val_cmp (vok small_or_float).
Proof. apply val_cmp_tpo. exact mixed_tpo. Qed.

(** the classes are inhabited by nested values with objects; 1 and 1.0 inside containers compare equal *)
Example vok_ex :
  let v := Obj [(TStr (of_ascii [98]), Arr [Num (Int 1); Null]); (Num (Int 2), Obj [(Bool true, Num (Flt 4607182418800017408))])] in
  let w := Obj [(Num (Flt 4611686018427387904), Obj [(Bool true, Num (Int 1))]); (TStr (of_ascii [98]), Arr [Num (Flt 4607182418800017408); Null])] in
  vok small_or_float v /\ vok small_or_float w /\ val_cmp v w = Eq /\ val_cmp w v = Eq.
Proof.
  cbv zeta. assert (F1 : small_or_float (Flt 4607182418800017408)) by (left; eexists; split; [reflexivity|split; reflexivity]).
  assert (F2 : small_or_float (Flt 4611686018427387904)) by (left; eexists; split; [reflexivity|split; reflexivity]).
  assert (I1 : small_or_float (Int 1)) by (right; exists 1; split; [left; reflexivity|unfold small_bound; lia]).
  assert (I2 : small_or_float (Int 2)) by (right; exists 2; split; [left; reflexivity|unfold small_bound; lia]).
  split; [|split; [|split; vm_compute; reflexivity]]; repeat first [assumption | apply ok_num | constructor; cbn [fst snd]].
Qed.
