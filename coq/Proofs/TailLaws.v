(** Tail calls in the compiler model (Core/Compile.v, mirror of jaq-core/src/compile.rs): a call to an enclosing definition
    that stands in a tail context is compiled as a thrown tail call, and the positions outside the tail contexts never let
    a tail call through. *)
From Coq Require Import ZArith Bool List Lia.
From JaqV Require Import Base.Bytes Val.Err Core.Syntax Core.Compile Proofs.CompileCommon.
Import ListNotations.

Section Tail.
  Variable g : genv.

  (** outside the tail contexts the tail-callable set [tr] is dropped: the result is the same whatever it is (so for the
      left of a pipe and of `//` and for conditions, see [c_pipe], [c_alt], [c_ite] in Proofs/CompileCommon.v) *)
  Lemma c_arr_no_tail n e s t tr : c_term g (S n) e s (PArr t) tr = c_term g (S n) e s (PArr t) [].
  Proof. reflexivity. Qed.
  Lemma c_neg_no_tail n e s t tr : c_term g (S n) e s (PNeg t) tr = c_term g (S n) e s (PNeg t) [].
  Proof. reflexivity. Qed.
  Lemma c_label_no_tail n e s x t tr : c_term g (S n) e s (PLabel x t) tr = c_term g (S n) e s (PLabel x t) [].
  Proof. reflexivity. Qed.
  Lemma c_try_no_tail n e s t c tr : c_term g (S n) e s (PTryCatch t c) tr = c_term g (S n) e s (PTryCatch t c) [].
  Proof. reflexivity. Qed.
  Lemma c_reduce_no_tail n e s xs p args tr :
    c_term g (S n) e s (PFold name_reduce xs p args) tr = c_term g (S n) e s (PFold name_reduce xs p args) [].
  Proof. destruct args as [|i [|u rest]]; reflexivity. Qed.
  Lemma c_math_no_tail n e s l o r tr :
    c_term g (S n) e s (PBinOp l (BMath o) r) tr = c_term g (S n) e s (PBinOp l (BMath o) r) [].
  Proof. reflexivity. Qed.
  Lemma c_cmp_no_tail n e s l o r tr :
    c_term g (S n) e s (PBinOp l (BCmp o) r) tr = c_term g (S n) e s (PBinOp l (BCmp o) r) [].
  Proof. reflexivity. Qed.
  Lemma c_update_no_tail n e s l r tr :
    c_term g (S n) e s (PBinOp l BUpdate r) tr = c_term g (S n) e s (PBinOp l BUpdate r) [].
  Proof. reflexivity. Qed.
  Lemma c_path_no_tail n e s t p tr : c_term g (S n) e s (PPath t p) tr = c_term g (S n) e s (PPath t p) [].
  Proof. reflexivity. Qed.
  Lemma c_str_no_tail n e s f ps tr : c_term g (S n) e s (PStr f ps) tr = c_term g (S n) e s (PStr f ps) [].
  Proof. reflexivity. Qed.
  Lemma c_obj_no_tail n e s kvs tr : c_term g (S n) e s (PObj kvs) tr = c_term g (S n) e s (PObj kvs) [].
  Proof. reflexivity. Qed.

  Inductive tctx :=
  | THole
  | TPipe (l : pterm) (c : tctx)
  | TBind (l : pterm) (p : ppat) (c : tctx)
  | TCommaR (l : pterm) (c : tctx)
  | TCommaL (c : tctx) (r : pterm)
  | TAlt (l : pterm) (c : tctx)
  | TThen (i : pterm) (c : tctx) (el : pterm)
  | TElse (i t : pterm) (c : tctx)
  | TForeach (xs : pterm) (p : ppat) (init update : pterm) (c : tctx).

  Fixpoint plug (c : tctx) (t : pterm) : pterm :=
    match c with
    | THole => t
    | TPipe l c => PBinOp l (BPipe None) (plug c t)
    | TBind l p c => PBinOp l (BPipe (Some p)) (plug c t)
    | TCommaR l c => PBinOp l BComma (plug c t)
    | TCommaL c r => PBinOp (plug c t) BComma r
    | TAlt l c => PBinOp l BAlt (plug c t)
    | TThen i c el => PIte [(i, plug c t)] (Some el)
    | TElse i th c => PIte [(i, th)] (Some (plug c t))
    | TForeach xs p init update c => PFold name_foreach xs p [init; update; plug c t]
    end.

  Fixpoint cdepth (c : tctx) : nat :=
    match c with
    | THole => O
    | TPipe _ c | TBind _ _ c | TCommaR _ c | TCommaL c _ | TAlt _ c | TThen _ c _ | TElse _ _ c | TForeach _ _ _ _ c => S (cdepth c)
    end.

  (** a thrown tail call to definition [id] in a position whose outputs are the outputs of the whole term *)
  Fixpoint has_throw (id : nat) (t : term) : bool :=
    match t with
    | KCallDef d _ _ Throw => Nat.eqb d id
    | KPipe _ _ r => has_throw id r
    | KComma l r => has_throw id l || has_throw id r
    | KAlt _ r => has_throw id r
    | KIte _ t e => has_throw id t || has_throw id e
    | KFold _ _ _ _ (Foreach (Some p)) => has_throw id p
    | _ => false
    end.

  Lemma mem_union_l x a b : mem x a = true -> mem x (union a b) = true.
  Proof. intros H. unfold union. unfold mem at 1. rewrite existsb_app. apply orb_true_iff. left. exact H. Qed.
  Lemma mem_union_r x a b : mem x b = true -> mem x (union a b) = true.
  Proof.
    intros H. unfold union. unfold mem at 1. rewrite existsb_app. apply orb_true_iff.
    destruct (mem x a) eqn:E; [left; exact E|right].
    apply existsb_exists in H as (y & Hy & Hxy). apply existsb_exists. exists y. split; [|exact Hxy].
    apply filter_In. split; [exact Hy|]. apply Nat.eqb_eq in Hxy. subst y. rewrite E. reflexivity.
  Qed.

  Theorem tail_call_is_thrown c : forall n e s f fe kinds id tr,
    (cdepth c < n)%nat ->
    find_fun f 0 (e_funs e) = Some fe -> f_kind fe = FParent kinds id -> mem id tr = true ->
    let '((t, tr_), _) := c_term g n e s (plug c (PCall f [])) tr in
    has_throw id t = true /\ mem id tr_ = true.
  Proof.
    induction c as [|l c IH|l p c IH|l c IH|c IH r|l c IH|i c IH el|i th c IH|xs p init update c IH];
      intros n e s f fe kinds id tr Hn Hf Hk Hm; (destruct n as [|n]; [cbn [cdepth] in Hn; lia|]); cbn [plug].
    1: {
      cbn [c_term]. unfold call, local_call. cbn [length]. rewrite Hf, Hk, Hm. cbn [has_throw]. rewrite Nat.eqb_refl.
      split; [reflexivity|]. unfold mem. cbn [existsb]. rewrite Nat.eqb_refl. reflexivity. }
    (* below a frame: the hypothesis for the hole, in whatever environment and state the frame compiles it *)
    all: cbn [cdepth] in Hn; apply Nat.succ_lt_mono in Hn;
      assert (IH' : forall e' s', find_fun f 0 (e_funs e') = Some fe ->
                      let '((t, tr_), _) := c_term g n e' s' (plug c (PCall f [])) tr in has_throw id t = true /\ mem id tr_ = true)
        by (intros e' s' Hf'; exact (IH n e' s' f fe kinds id tr Hn Hf' Hk Hm)); clear IH.
    - rewrite c_pipe. destruct (c_term g n e s l []) as [[l' t0] s1]. specialize (IH' e s1 Hf).
      destruct (c_term g n e s1 (plug c (PCall f [])) tr) as [[r' tr_] s2]. exact IH'.
    - rewrite c_bind. destruct (c_term g n e s l []) as [[l' t0] s1].
      specialize (IH' (with_vars (pat_vars_f n p) e) s1 ltac:(rewrite (proj2 (with_vars_env _ _)); exact Hf)).
      destruct (c_term g n (with_vars (pat_vars_f n p) e) s1 (plug c (PCall f [])) tr) as [[r' tr_] s2].
      destruct (c_pattern g n e s2 p) as [p' s3]. exact IH'.
    - rewrite c_comma. destruct (c_term g n e s l tr) as [[l' trl] s1]. specialize (IH' e s1 Hf).
      destruct (c_term g n e s1 (plug c (PCall f [])) tr) as [[r' trr] s2]. destruct IH' as [A B]. cbn [has_throw].
      rewrite A, orb_true_r. split; [reflexivity|apply mem_union_r; exact B].
    - rewrite c_comma. specialize (IH' e s Hf).
      destruct (c_term g n e s (plug c (PCall f [])) tr) as [[l' trl] s1]. destruct (c_term g n e s1 r tr) as [[r' trr] s2].
      destruct IH' as [A B]. cbn [has_throw]. rewrite A. split; [reflexivity|apply mem_union_l; exact B].
    - rewrite c_alt. destruct (c_term g n e s l []) as [[l' t0] s1]. specialize (IH' e s1 Hf).
      destruct (c_term g n e s1 (plug c (PCall f [])) tr) as [[r' tr_] s2]. exact IH'.
    - rewrite c_ite. destruct (c_term g n e s i []) as [[i' t0] s1]. specialize (IH' e s1 Hf).
      destruct (c_term g n e s1 (plug c (PCall f [])) tr) as [[t' trt] s2]. destruct (c_term g n e s2 el tr) as [[e' tre] s3].
      destruct IH' as [A B]. cbn [has_throw]. rewrite A. split; [reflexivity|apply mem_union_l; exact B].
    - rewrite c_ite. destruct (c_term g n e s i []) as [[i' t0] s1]. destruct (c_term g n e s1 th tr) as [[t' trt] s2].
      specialize (IH' e s2 Hf). destruct (c_term g n e s2 (plug c (PCall f [])) tr) as [[e' tre] s3].
      destruct IH' as [A B]. cbn [has_throw]. rewrite A, orb_true_r. split; [reflexivity|apply mem_union_r; exact B].
    - rewrite c_foreach. destruct (c_term g n e s xs []) as [[xs' t0] s1]. destruct (c_pattern g n e s1 p) as [pat' s2].
      destruct (c_term g n e s2 init []) as [[init' t1] s3].
      destruct (c_term g n (with_vars (pat_vars_f n p) e) s3 update []) as [[update' t2] s4].
      specialize (IH' (with_vars (pat_vars_f n p) e) s4 ltac:(rewrite (proj2 (with_vars_env _ _)); exact Hf)).
      destruct (c_term g n (with_vars (pat_vars_f n p) e) s4 (plug c (PCall f [])) tr) as [[proj' tr_] s5]. exact IH'.
  Qed.

  (** with [tr] empty, as it is outside the tail contexts, the call is not thrown: it expands the thrown calls of the
      callee instead *)
  Lemma non_tail_call_is_caught e s f fe kinds id n :
    find_fun f 0 (e_funs e) = Some fe -> f_kind fe = FParent kinds id ->
    fst (c_term g (S n) e s (PCall f []) []) = (KCallDef id (binds kinds []) (total e - f_vars fe) CatchAll, []).
  Proof. intros Hf Hk. cbn [c_term]. unfold call, local_call. cbn [length]. rewrite Hf, Hk. reflexivity. Qed.
End Tail.
