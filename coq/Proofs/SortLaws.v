(** The stable insertion sort of the model ([Val.sort_by], the contract of Rust's stable sorts): for every
    comparison that is a total preorder the result is sorted, elements that compare equal keep their order, and sorting a
    sorted list changes nothing (`sort | sort` = `sort`); on integers it is the numeric sort.  That the result is a
    permutation of the input is [ValOrder.sort_by_perm]. *)
From Coq Require Import List ZArith Sorting.Sorted Sorting.Permutation.
From JaqV Require Import Val.Val Proofs.ValOrder.
Import ListNotations.

Section Sort.
  Variable A : Type.
  Variable c : A -> A -> comparison.

  Definition le (a b : A) : Prop := c a b <> Gt.

  (** what "total preorder" means for a three-way comparison *)
  Record total_preorder : Prop := {
    tp_total : forall a b, c a b = Gt -> le b a;
    tp_trans : forall a b d, le a b -> le b d -> le a d }.

  Hypothesis TP : total_preorder.

  Lemma insert_sorted a l : StronglySorted le l -> StronglySorted le (insert_by c a l).
  Proof.
    induction 1 as [|b r Hr IH Hb]; cbn [insert_by]; [repeat constructor|].
    assert (Hs : StronglySorted le (b :: r)) by (constructor; assumption).
    assert (Front : le a b -> StronglySorted le (a :: b :: r)).
    { intros L. constructor; [exact Hs|]. constructor; [exact L|].
      eapply Forall_impl; [|exact Hb]. intros x. apply (tp_trans TP). exact L. }
    destruct (c a b) eqn:E; [apply Front; unfold le; congruence ..|].
    (* a > b: a goes somewhere into r, whose elements are all above b, as is a *)
    constructor; [exact IH|]. eapply Permutation_Forall; [apply insert_by_perm|].
    constructor; [apply (tp_total TP); exact E|exact Hb].
  Qed.

  Theorem sort_sorted l : StronglySorted le (sort_by c l).
  Proof. induction l as [|a l IH]; cbn; [constructor|]. apply insert_sorted. exact IH. Qed.

  (** ** stability: the elements of one equivalence class come out in the order they came in *)
  Hypothesis eq_congr : forall a b, c a b = Eq -> forall z, c z a = c z b.
  Hypothesis eq_sym : forall a b, c a b = Eq -> c b a = Eq.

  Definition same (x y : A) : bool := match c x y with Eq => true | _ => false end.

  Lemma insert_filter x a l :
    filter (same x) (insert_by c a l) = filter (same x) (a :: l).
  Proof.
    induction l as [|b r IH]; [reflexivity|]. cbn [insert_by].
    destruct (c a b) eqn:E; try reflexivity.
    (* a > b: a moves behind b; if both are in the class of x this would swap them - impossible since then a = b *)
    cbn [filter]. rewrite IH. cbn [filter].
    destruct (same x a) eqn:Sa, (same x b) eqn:Sb; try reflexivity.
    exfalso. unfold same in Sa, Sb. destruct (c x a) eqn:Ea; try discriminate. destruct (c x b) eqn:Eb; try discriminate.
    (* c x a = Eq and c x b = Eq give c a b = c a x = Eq, but a > b *)
    pose proof (eq_congr x b Eb a) as H1. pose proof (eq_sym x a Ea) as H2. congruence.
  Qed.

  Theorem sort_stable x l : filter (same x) (sort_by c l) = filter (same x) l.
  Proof.
    induction l as [|a l IH]; [reflexivity|]. cbn [sort_by fold_right]. fold (sort_by c l).
    rewrite insert_filter. cbn [filter]. rewrite IH. reflexivity.
  Qed.
End Sort.

Lemma sort_fixes_sorted {A} (c : A -> A -> comparison) l : StronglySorted (le A c) l -> sort_by c l = l.
Proof.
  induction 1 as [|a r Hr IH Hall]; [reflexivity|].
  unfold sort_by in *. cbn [fold_right]. rewrite IH.
  destruct r as [|b r]; [reflexivity|]. cbn [insert_by].
  apply Forall_inv in Hall. unfold le in Hall. destruct (c a b); try reflexivity. congruence.
Qed.

Theorem sort_idempotent {A} (c : A -> A -> comparison) : total_preorder A c ->
  forall l, sort_by c (sort_by c l) = sort_by c l.
Proof. intros T l. apply sort_fixes_sorted. apply sort_sorted. exact T. Qed.

(** a total preorder on a whole type in the sense of ValOrder is one here *)
Lemma tpo_total_preorder {A} (c : A -> A -> comparison) : tpo c (fun _ => True) -> total_preorder A c.
Proof.
  intros T. split.
  - intros a b E. unfold le. rewrite (tp_anti _ _ T a b I I), E. discriminate.
  - intros a b d. apply (tp_le _ _ T a b d I I I).
Qed.

Lemma insert_by_map {A B} (f : A -> B) (c : B -> B -> comparison) (c' : A -> A -> comparison) :
  (forall a b, c (f a) (f b) = c' a b) -> forall a l, insert_by c (f a) (map f l) = map f (insert_by c' a l).
Proof.
  intros H a l. induction l as [|b r IH]; [reflexivity|]. cbn [map insert_by]. rewrite H.
  destruct (c' a b); cbn [map]; try reflexivity. rewrite IH. reflexivity.
Qed.

Lemma sort_by_map {A B} (f : A -> B) (c : B -> B -> comparison) (c' : A -> A -> comparison) :
  (forall a b, c (f a) (f b) = c' a b) -> forall l, sort_by c (map f l) = map f (sort_by c' l).
Proof.
  intros H l. induction l as [|a l IH]; [reflexivity|]. cbn [map sort_by fold_right]. fold (sort_by c (map f l)) (sort_by c' l).
  rewrite IH. apply insert_by_map. exact H.
Qed.

(** [sort] on an array of integers (whatever their size) is the numeric, stable sort: on integers [val_cmp] is [Z.compare],
    and [le Z Z.compare] unfolds to [Z.le] *)
Theorem sort_integer_array l :
  sort_by val_cmp (map vint l) = map vint (sort_by Z.compare l)
  /\ StronglySorted (fun a b => (a <= b)%Z) (sort_by Z.compare l).
Proof.
  split; [apply sort_by_map; reflexivity|].
  exact (sort_sorted Z Z.compare (tpo_total_preorder Z.compare z_tpo) l).
Qed.
