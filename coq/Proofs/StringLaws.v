(** Strings: [explode | implode], [split | join] and the ASCII case maps return every byte string unchanged where the
    property says so - for all strings, valid UTF-8 or not. *)
From Coq Require Import ZArith Bool List Lia.
From JaqV Require Import Base.Bytes Val.Num Val.Val Val.Utf8 Val.Err Val.Arith Std.Natives Proofs.SafeLaws Proofs.DigitLaws Proofs.TrimLaws.
Import ListNotations.
Local Open Scope Z_scope.

(** ** decoding a character and encoding it again gives the bytes that were read *)
Lemma in_rng_spec lo hi b : in_rng lo hi b = true -> lo <= bz b <= hi.
Proof. unfold in_rng. intros H. apply andb_true_iff in H as [H1 H2]. apply Z.leb_le in H1. apply Z.leb_le in H2. lia. Qed.

Lemma is_scalar_spec c : is_scalar c = true <-> 0 <= c < 55296 \/ 57344 <= c < 1114112.
Proof. unfold is_scalar. rewrite orb_true_iff, !andb_true_iff, !Z.leb_le, !Z.ltb_lt. reflexivity. Qed.

(** the encodings of two, three and four bytes, written with the bytes as the digits of the character to base 64 *)
Lemma encode1_two b0 b1 : let c := (bz b0 - 192) * 64 + (bz b1 - 128) in
  192 <= bz b0 -> 128 <= bz b1 <= 191 -> 128 <= c < 2048 -> encode1 c = [b0; b1].
Proof.
  intros c H0 H1 Hc. unfold encode1.
  destruct (Z.ltb_spec c 128); [lia|]. destruct (Z.ltb_spec c 2048); [|lia].
  f_equal; [|f_equal]; apply zb_eq; subst c; Z.div_mod_to_equations; lia.
Qed.

Lemma encode1_three b0 b1 b2 : let c := (bz b0 - 224) * 4096 + (bz b1 - 128) * 64 + (bz b2 - 128) in
  224 <= bz b0 -> 128 <= bz b1 <= 191 -> 128 <= bz b2 <= 191 -> 2048 <= c < 65536 -> encode1 c = [b0; b1; b2].
Proof.
  intros c H0 H1 H2 Hc. unfold encode1.
  destruct (Z.ltb_spec c 128); [lia|]. destruct (Z.ltb_spec c 2048); [lia|]. destruct (Z.ltb_spec c 65536); [|lia].
  f_equal; [|f_equal; [|f_equal]]; apply zb_eq; subst c; Z.div_mod_to_equations; lia.
Qed.

Lemma encode1_four b0 b1 b2 b3 :
  let c := (bz b0 - 240) * 262144 + (bz b1 - 128) * 4096 + (bz b2 - 128) * 64 + (bz b3 - 128) in
  240 <= bz b0 -> 128 <= bz b1 <= 191 -> 128 <= bz b2 <= 191 -> 128 <= bz b3 <= 191 -> 65536 <= c -> encode1 c = [b0; b1; b2; b3].
Proof.
  intros c H0 H1 H2 H3 Hc. unfold encode1.
  destruct (Z.ltb_spec c 128); [lia|]. destruct (Z.ltb_spec c 2048); [lia|]. destruct (Z.ltb_spec c 65536); [lia|].
  f_equal; [|f_equal; [|f_equal; [|f_equal]]]; apply zb_eq; subst c; Z.div_mod_to_equations; lia.
Qed.

(** the range of the second byte depends on the first: it keeps overlong forms, surrogates and characters above U+10FFFF out *)
Lemma decode1_encode1 s c n : decode1 s = (Some c, n) -> is_scalar c = true /\ encode1 c = firstn n s /\ (1 <= n)%nat.
Proof.
  unfold decode1. destruct s as [|b0 r]; [discriminate|]. cbv zeta. pose proof (bz_range b0) as R0.
  destruct (Z.ltb_spec (bz b0) 128) as [E0|E0].
  { intros [= <- <-]. split; [apply is_scalar_spec; lia|]. split; [|lia].
    unfold encode1. destruct (Z.ltb_spec (bz b0) 128); [|lia]. rewrite zb_bz. reflexivity. }
  destruct (in_rng 194 223 b0) eqn:E2.
  { apply in_rng_spec in E2. destruct r as [|b1 r1]; [discriminate|].
    destruct (is_cont b1) eqn:C1; [|discriminate]. apply in_rng_spec in C1. unfold cbits.
    intros [= <- <-]. split; [apply is_scalar_spec; lia|]. split; [apply encode1_two; lia|lia]. }
  destruct (in_rng 224 239 b0) eqn:E3.
  { apply in_rng_spec in E3. destruct r as [|b1 r1]; [discriminate|].
    destruct (in_rng (if bz b0 =? 224 then 160 else 128) (if bz b0 =? 237 then 159 else 191) b1) eqn:C1; [|discriminate].
    apply in_rng_spec in C1. destruct r1 as [|b2 r2]; [discriminate|].
    destruct (is_cont b2) eqn:C2; [|discriminate]. apply in_rng_spec in C2. unfold cbits.
    intros [= <- <-]. destruct (Z.eqb_spec (bz b0) 224), (Z.eqb_spec (bz b0) 237);
      (split; [apply is_scalar_spec; lia|]); (split; [apply encode1_three; lia|lia]). }
  destruct (in_rng 240 244 b0) eqn:E4; [|discriminate].
  apply in_rng_spec in E4. destruct r as [|b1 r1]; [discriminate|].
  destruct (in_rng (if bz b0 =? 240 then 144 else 128) (if bz b0 =? 244 then 143 else 191) b1) eqn:C1; [|discriminate].
  apply in_rng_spec in C1. destruct r1 as [|b2 r2]; [discriminate|].
  destruct (is_cont b2) eqn:C2; [|discriminate]. apply in_rng_spec in C2.
  destruct r2 as [|b3 r3]; [discriminate|].
  destruct (is_cont b3) eqn:C3; [|discriminate]. apply in_rng_spec in C3. unfold cbits.
  intros [= <- <-]. destruct (Z.eqb_spec (bz b0) 240), (Z.eqb_spec (bz b0) 244);
    (split; [apply is_scalar_spec; lia|]); (split; [apply encode1_four; lia|lia]).
Qed.

(** every chunk that decodes to a character is that character's encoding *)
Lemma chunks_f_chars fuel : forall s, Forall (fun ch => match fst ch with
                                                          | Some c => is_scalar c = true /\ encode1 c = snd ch
                                                          | None => True
                                                          end) (chunks_f fuel s).
Proof.
  induction fuel as [|fuel IH]; intros s; [constructor|]. cbn [chunks_f].
  destruct s as [|b r]; [constructor|].
  destruct (decode1 (b :: r)) as [c n] eqn:E. constructor; [|apply IH].
  cbn [fst snd]. destruct c as [c|]; [|exact I].
  destruct (decode1_encode1 _ _ _ E) as (Hs & He & Hn). split; [exact Hs|]. rewrite Nat.max_l by lia. exact He.
Qed.

Lemma implode_cons_int i r : implode (vint i :: r) =
  let here := if (0 <=? - i) && (- i <=? 255) then Ok [zb (- i)] else if is_scalar i then Ok (encode1 i) else Err (EOther 2) in
  match here with
  | Ok bs => match implode r with Some (Ok rest) => Some (Ok (bs ++ rest)) | o => o end
  | Err e => Some (Err e)
  end.
Proof. reflexivity. Qed.

Lemma implode_app xs : forall a ys, implode xs = Some (Ok a) ->
  implode (xs ++ ys) = match implode ys with Some (Ok rest) => Some (Ok (a ++ rest)) | o => o end.
Proof.
  induction xs as [|x xs IH]; intros a ys H.
  - cbn in H. injection H as <-. cbn [app]. destruct (implode ys) as [[?|?]|]; reflexivity.
  - cbn [app]. cbn [implode] in *. destruct x as [| |n| | | |]; try discriminate.
    destruct (as_isize n) as [i|]; [|discriminate].
    destruct (if (0 <=? - i) && (- i <=? 255) then Ok [zb (- i)] else if is_scalar i then Ok (encode1 i) else Err (EOther 2)) as [bs|e];
      [|discriminate].
    destruct (implode xs) as [[a0|e0]|] eqn:Ex; try discriminate. injection H as <-.
    rewrite (IH a0 ys eq_refl). destruct (implode ys) as [[rest|e1]|]; try reflexivity. rewrite app_assoc. reflexivity.
Qed.

Lemma implode_invalid_bytes bs : implode (map (fun b => vint (- bz b)) bs) = Some (Ok bs).
Proof.
  induction bs as [|b r IH]; [reflexivity|]. cbn [map]. rewrite implode_cons_int. cbn zeta.
  pose proof (bz_range b). replace (- - bz b) with (bz b) by lia.
  destruct (Z.leb_spec 0 (bz b)), (Z.leb_spec (bz b) 255); try lia. cbn [andb]. rewrite IH, zb_bz. reflexivity.
Qed.

Lemma implode_char c bs : is_scalar c = true -> encode1 c = bs -> implode [vint c] = Some (Ok bs).
Proof.
  intros Hs He. rewrite implode_cons_int. cbn zeta. cbn [implode].
  destruct ((0 <=? - c) && (- c <=? 255)) eqn:E.
  - (* only the character 0 *)
    apply andb_true_iff in E as [E1 _]. apply Z.leb_le in E1.
    assert (c = 0) by (apply is_scalar_spec in Hs; lia). subst c. rewrite <- He. reflexivity.
  - rewrite Hs, He, app_nil_r. reflexivity.
Qed.

(** for every byte string - valid UTF-8 or not - [explode | implode] gives the string back *)
Theorem explode_implode s : implode (explode s) = Some (Ok s).
Proof.
  unfold explode. rewrite <- (chunks_partition s) at 2.
  pose proof (chunks_f_chars (length s) s) as Hc. fold (chunks s) in Hc.
  induction (chunks s) as [|[c bs] r IH]; [reflexivity|].
  inversion Hc as [|? ? Hh Ht]; subst. cbn [flat_map map concat fst snd] in *.
  assert (Hhere : implode (match c with Some c0 => [vint c0] | None => map (fun b => vint (- bz b)) bs end) = Some (Ok bs)).
  { destruct c as [c|]; [destruct Hh as [Hs He]; apply implode_char; assumption | apply implode_invalid_bytes]. }
  rewrite (implode_app _ _ _ Hhere), (IH Ht). reflexivity.
Qed.

Fixpoint intercalate (sep : bytes) (l : list bytes) : bytes :=
  match l with
  | [] => []
  | [x] => x
  | x :: r => x ++ sep ++ intercalate sep r
  end.

Lemma split_f_nonempty fuel sep : forall s cur, split_f fuel sep s cur <> [].
Proof.
  induction fuel as [|fuel IH]; intros s cur; cbn [split_f]; [discriminate|].
  destruct s as [|c r]; [discriminate|]. destruct (is_prefix sep (c :: r)); [discriminate | apply IH].
Qed.

Lemma intercalate_cons sep x l : l <> [] -> intercalate sep (x :: l) = x ++ sep ++ intercalate sep l.
Proof. destruct l; [contradiction | reflexivity]. Qed.

Lemma split_f_join sep : sep <> [] -> forall fuel s cur, (length s <= fuel)%nat ->
  intercalate sep (split_f fuel sep s cur) = rev cur ++ s.
Proof.
  intros Hsep. induction fuel as [|fuel IH]; intros s cur Hlen.
  - destruct s; [cbn; rewrite app_nil_r; reflexivity | cbn in Hlen; lia].
  - cbn [split_f]. destruct s as [|c r]; [cbn; rewrite app_nil_r; reflexivity|].
    destruct (is_prefix sep (c :: r)) eqn:Ep.
    + rewrite intercalate_cons by apply split_f_nonempty.
      rewrite IH.
      * cbn [rev app]. rewrite (ltrim_restores _ _ Ep). reflexivity.
      * rewrite skipn_length. cbn [length] in *. destruct sep; [contradiction|]. cbn [length]. lia.
    + rewrite IH by (cbn [length] in Hlen; lia). cbn [rev]. rewrite <- app_assoc. reflexivity.
Qed.

(** the pieces of [split], joined by the separator, are the string: for every string and every separator, the empty one
    (which splits into characters) included *)
Theorem split_join s sep : intercalate sep (split s sep) = s.
Proof.
  unfold split. destruct s as [|b r]; [reflexivity|]. destruct sep as [|a p].
  - (* characters: joined by nothing *)
    rewrite <- (chunks_partition (b :: r)) at 2.
    assert (H : forall l : list bytes, intercalate [] l = concat l).
    { induction l as [|x l IHl]; [reflexivity|]. destruct l as [|y l]; [cbn; rewrite app_nil_r; reflexivity|].
      change (intercalate [] (x :: y :: l)) with (x ++ [] ++ intercalate [] (y :: l)). rewrite IHl. reflexivity. }
    apply H.
  - rewrite split_f_join; [reflexivity | discriminate | lia].
Qed.

(** ** ASCII case maps: each shifts one range of letters by a constant and leaves every other byte *)
Section SHIFT.
  Variables (f : Z -> Z) (lo hi d : Z).
  Hypothesis f_def : forall z, f z = if (lo <=? z) && (z <=? hi) then z + d else z.

  Lemma shift_non_ascii s : hi < 128 -> Forall (fun b => 128 <= bz b) s -> ascii_map f s = s.
  Proof.
    intros Hhi H. unfold ascii_map. induction H as [|b r Hb _ IH]; [reflexivity|]. cbn [map]. rewrite IH, f_def.
    destruct (Z.leb_spec (bz b) hi); [lia|]. rewrite andb_false_r, zb_bz. reflexivity.
  Qed.

  Lemma shift_bytewise s : 0 <= lo + d -> hi + d < 256 ->
    Forall2 (fun a b => b = a \/ (lo <= bz a <= hi /\ bz b = bz a + d)) s (ascii_map f s).
  Proof.
    intros Hlo Hhi. unfold ascii_map. induction s as [|a r IH]; cbn [map]; constructor; [|exact IH]. rewrite f_def.
    destruct (Z.leb_spec lo (bz a)), (Z.leb_spec (bz a) hi); cbn [andb]; try (left; apply zb_bz).
    right. split; [lia|]. apply bz_zb. lia.
  Qed.
End SHIFT.

(** bytes outside ASCII (all bytes of multi-byte characters and of invalid sequences) are never changed *)
Theorem ascii_case_keeps_non_ascii s : Forall (fun b => 128 <= bz b) s ->
  ascii_map lower s = s /\ ascii_map upper s = s.
Proof.
  intros H. split; [apply (shift_non_ascii lower 65 90 32)|apply (shift_non_ascii upper 97 122 (-32))];
    try exact H; reflexivity.
Qed.

(** each byte is mapped on its own: the length and every byte that is not a letter of the other case stay *)
Theorem ascii_case_bytewise s :
  length (ascii_map lower s) = length s /\ length (ascii_map upper s) = length s
  /\ Forall2 (fun a b => b = a \/ (65 <= bz a <= 90 /\ bz b = bz a + 32)) s (ascii_map lower s)
  /\ Forall2 (fun a b => b = a \/ (97 <= bz a <= 122 /\ bz b = bz a - 32)) s (ascii_map upper s).
Proof.
  split; [apply map_length|]. split; [apply map_length|]. split.
  - apply (shift_bytewise lower 65 90 32); [reflexivity|lia ..].
  - apply (shift_bytewise upper 97 122 (-32)); [reflexivity|lia ..].
Qed.

Example explode_implode_example :
  implode (explode [zb 97; zb 195; zb 169; zb 255; zb 240; zb 159; zb 152; zb 128; zb 226; zb 130])
  = Some (Ok [zb 97; zb 195; zb 169; zb 255; zb 240; zb 159; zb 152; zb 128; zb 226; zb 130]).
Proof. vm_compute. reflexivity. Qed.
