(** Decoders that undo an encoder item by item: what one step does to one encoded item, whatever follows it, the whole
    run does to an encoded string.  The fuel is one unit per item; a decoder without fuel ignores it. *)
From Coq Require Import List Lia.
Import ListNotations.

Lemma copy_acc {A R} (p : A -> bool) (go : list A -> list A -> R) :
  (forall c rest acc, p c = true -> go (c :: rest) acc = go rest (c :: acc)) ->
  forall t rest acc, forallb p t = true -> go (t ++ rest) acc = go rest (rev t ++ acc).
Proof.
  intros step. induction t as [|c t IH]; intros rest acc H; [reflexivity|].
  cbn [forallb] in H. apply andb_prop in H as [Hc Ht]. cbn [app rev]. rewrite <- app_assoc, (step _ _ _ Hc). apply IH, Ht.
Qed.

Lemma in_flat_map_len {A B} (f : A -> list B) l x : In x l -> length (f x) <= length (flat_map f l).
Proof. induction l as [|y l IH]; [intros []|]. cbn [flat_map]. rewrite app_length. intros [->|H]; [lia|specialize (IH H); lia]. Qed.

Section OneStep.
  Context {A B : Type} (enc : A -> list B).

  Lemma decode_acc_on (P : A -> Prop) {R} (go : nat -> list B -> list A -> R) :
    (forall c, P c -> forall n rest acc, go (S n) (enc c ++ rest) acc = go n rest (c :: acc)) ->
    forall s, Forall P s -> forall n rest acc, go (length s + n) (flat_map enc s ++ rest) acc = go n rest (rev s ++ acc).
  Proof.
    intros step s H. induction H as [|c s Hc _ IH]; intros n rest acc; [reflexivity|].
    cbn [length plus flat_map rev]. rewrite <- !app_assoc, (step c Hc), IH. reflexivity.
  Qed.

  Lemma decode_acc {R} (go : nat -> list B -> list A -> R) :
    (forall c n rest acc, go (S n) (enc c ++ rest) acc = go n rest (c :: acc)) ->
    forall s n rest acc, go (length s + n) (flat_map enc s ++ rest) acc = go n rest (rev s ++ acc).
  Proof. intros step s. apply (decode_acc_on (fun _ => True) go (fun c _ => step c)), Forall_forall. trivial. Qed.

  Lemma decode_cons (go : nat -> list B -> list A) :
    (forall c n rest, go (S n) (enc c ++ rest) = c :: go n rest) ->
    forall s n rest, go (length s + n) (flat_map enc s ++ rest) = s ++ go n rest.
  Proof.
    intros step. induction s as [|c s IH]; intros n rest; [reflexivity|].
    cbn [length plus flat_map]. rewrite <- app_assoc, step, IH. reflexivity.
  Qed.

  Lemma flat_map_length_ge s : (forall c, enc c <> []) -> length s <= length (flat_map enc s).
  Proof.
    intros H. induction s as [|c s IH]; [apply le_n|]. cbn [flat_map length]. rewrite app_length.
    specialize (H c). destruct (enc c); [contradiction | cbn [length]; lia].
  Qed.

  Lemma decode_all (go : nat -> list B -> list A) :
    (forall c n rest, go (S n) (enc c ++ rest) = c :: go n rest) -> (forall n, go n [] = []) -> (forall c, enc c <> []) ->
    forall s, go (length (flat_map enc s)) (flat_map enc s) = s.
  Proof.
    intros step stop H s. pose proof (flat_map_length_ge s H).
    replace (length (flat_map enc s)) with (length s + (length (flat_map enc s) - length s)) by lia.
    rewrite <- (app_nil_r (flat_map enc s)) at 2. rewrite (decode_cons go step), stop. apply app_nil_r.
  Qed.
End OneStep.
