(** Precedence climbing for chains of any length: the tree that [climb_plain] builds consumes the whole chain and every
    node respects the table ([okt]) - the operator at the root of a left operand binds tighter than its parent (or equally,
    on a left-associative level), and likewise on the right.  Together with [climb_plain_seq] this determines the tree. *)
From Coq Require Import Bool List Lia Arith.
From JaqV Require Import Val.Err Parse.PrecClimb Proofs.PrecLaws.
Import ListNotations.

Lemma right_assoc_level o : right_assoc o = existsb (Nat.eqb (prec o)) [0; 2; 3].
Proof. destruct o as [| |p| | |m| | | | |c|m]; try destruct c; try destruct m; reflexivity. Qed.

Lemma assoc_by_level a b : prec a = prec b -> right_assoc a = right_assoc b.
Proof. intros H. rewrite !right_assoc_level, H. reflexivity. Qed.

Definition tighter_left (o' o : bop) : Prop := prec o < prec o' \/ (prec o' = prec o /\ right_assoc o = false).
Definition tighter_right (o' o : bop) : Prop := prec o < prec o' \/ (prec o' = prec o /\ right_assoc o = true).

Definition takes (o next : bop) : bool := (prec o <? prec next) || (right_assoc o && (prec next =? prec o)).

Lemma takes_true o next : takes o next = true -> tighter_right next o.
Proof.
  unfold takes, tighter_right. intros H. apply orb_true_iff in H as [H|H].
  - left. apply Nat.ltb_lt. exact H.
  - apply andb_true_iff in H as [Ha He]. right. split; [apply Nat.eqb_eq; exact He | exact Ha].
Qed.

Lemma takes_false o next : takes o next = false -> tighter_left o next.
Proof.
  unfold takes, tighter_left. intros H. apply orb_false_iff in H as [H1 H2]. apply Nat.ltb_ge in H1.
  destruct (Nat.eq_dec (prec next) (prec o)) as [E|E]; [|left; lia].
  right. split; [symmetry; exact E|]. rewrite (assoc_by_level next o E).
  apply andb_false_iff in H2 as [H2|H2]; [exact H2|]. apply Nat.eqb_neq in H2. contradiction.
Qed.

Section Leaves.
  Variable P : expr -> Prop.

  Inductive side (R : bop -> bop -> Prop) (o : bop) : expr -> Prop :=
  | side_leaf e : P e -> side R o e
  | side_bin l o' r : R o' o -> side R o (Bin l o' r).

  Inductive okt : expr -> Prop :=
  | okt_leaf e : P e -> okt e
  | okt_bin l o r : okt l -> okt r -> side tighter_left o l -> side tighter_right o r -> okt (Bin l o r).

  Definition leaves (c : chain) : Prop := Forall (fun ot => P (snd ot)) c.

  Definition head_ok (x : expr) (c : chain) (m : nat) : Prop :=
    match c with (o, _) :: _ => m <= prec o -> side tighter_left o x | [] => True end.

  Definition stops_below (c : chain) (m : nat) : Prop :=
    match c with (o, _) :: _ => prec o < m | [] => True end.

  Definition root_at_least (m : nat) (t : expr) : Prop := exists l o r, t = Bin l o r /\ m <= prec o.

  Lemma climb_spec : forall fuel,
    (forall x rest m t rest', climb1 fuel x rest m = (t, rest') -> 2 * length rest < fuel ->
       okt x -> leaves rest -> head_ok x rest m ->
       okt t /\ leaves rest' /\ stops_below rest' m
       /\ ((t = x /\ rest' = rest) \/ (length rest' < length rest /\ root_at_least m t)))
    /\
    (forall o rhs rest r rest', inner fuel o rhs rest = (r, rest') -> 2 * length rest + 1 < fuel ->
       okt rhs -> side tighter_right o rhs -> leaves rest ->
       (match rest with (nx, _) :: _ => side tighter_left nx rhs | [] => True end) ->
       okt r /\ side tighter_right o r /\ leaves rest' /\ length rest' <= length rest
       /\ (match rest' with (nx, _) :: _ => takes o nx = false | [] => True end)).
  Proof.
    induction fuel as [|fuel [IH1 IH2]]; [split; intros; lia|]. split.
    - intros x rest m t rest' H Hf Hx Hl Hh. cbn [climb1] in H.
      destruct rest as [|[o rhs] rest0].
      { injection H as <- <-. repeat split; auto. }
      destruct (m <=? prec o) eqn:Em.
      2:{ injection H as <- <-. apply Nat.leb_gt in Em. repeat split; auto. }
      apply Nat.leb_le in Em. cbn [length] in Hf.
      destruct (inner fuel o rhs rest0) as [rhs' rest1] eqn:Ei.
      inversion Hl as [|? ? Hrhs Hl0]; subst. cbn [snd] in Hrhs.
      destruct (IH2 o rhs rest0 rhs' rest1 Ei) as (Hok' & Hside' & Hl1 & Hlen1 & Hstop1);
        [lia | apply okt_leaf; exact Hrhs | apply side_leaf; exact Hrhs | exact Hl0 | destruct rest0 as [|[nx ?] ?]; [exact I | apply side_leaf; exact Hrhs] |].
      assert (Hbin : okt (Bin x o rhs')) by (apply okt_bin; [exact Hx | exact Hok' | apply Hh, Em | exact Hside']).
      destruct (IH1 (Bin x o rhs') rest1 m t rest' H) as (Hokt & Hlr & Hst & Hcase); [lia | exact Hbin | exact Hl1 | |].
      { destruct rest1 as [|[nx e] rest2]; [exact I|]. intros _. apply side_bin. apply takes_false. exact Hstop1. }
      repeat split; auto. right. cbn [length]. destruct Hcase as [[-> ->]|[Hlt Hroot]].
      + split; [lia|]. exists x, o, rhs'. split; [reflexivity | exact Em].
      + split; [lia | exact Hroot].
    - intros o rhs rest r rest' H Hf Hrhs Hside Hl Hh. cbn [inner] in H.
      destruct rest as [|[next e] rest0].
      { injection H as <- <-. repeat split; auto. }
      fold (takes o next) in H. destruct (takes o next) eqn:Et.
      2:{ injection H as <- <-. repeat split; auto. }
      destruct (climb1 fuel rhs ((next, e) :: rest0) (prec next)) as [rhs' rest1] eqn:Ec.
      destruct (IH1 rhs ((next, e) :: rest0) (prec next) rhs' rest1 Ec) as (Hok' & Hl1 & Hst1 & Hcase);
        [lia | exact Hrhs | exact Hl | intros _; exact Hh |].
      destruct Hcase as [[-> ->]|[Hlt (l2 & o2 & r2 & -> & Hge)]]; [cbn in Hst1; lia|].
      destruct (IH2 o (Bin l2 o2 r2) rest1 r rest' H) as (Hokr & Hsr & Hlr & Hlenr & Hstopr); [lia | exact Hok' | | exact Hl1 | |].
      + apply side_bin. apply takes_true in Et. unfold tighter_right in *. destruct Et as [Et|[Ee Ea]]; [left; lia|].
        destruct (Nat.eq_dec (prec o2) (prec o)) as [E2|E2]; [right; split; assumption | left; lia].
      + destruct rest1 as [|[nx e1] rest2]; [exact I|]. cbn in Hst1. apply side_bin. left. lia.
      + repeat split; auto. lia.
  Qed.
End Leaves.

Theorem climb_respects_table x rest :
  let P e := e = x \/ In e (map snd rest) in
  climb1 (S (2 * length rest)) x rest 0 = (climb_plain x rest, []) /\ okt P (climb_plain x rest).
Proof.
  cbn zeta. unfold climb_plain.
  destruct (climb1 (S (2 * length rest)) x rest 0) as [t rest'] eqn:E.
  set (P := fun e => e = x \/ In e (map snd rest)).
  destruct (proj1 (climb_spec P (S (2 * length rest))) x rest 0 t rest' E) as (Hok & _ & Hst & _).
  - lia.
  - apply okt_leaf. left. reflexivity.
  - apply Forall_forall. intros [o e] Hin. right. apply in_map_iff. exists (o, e). split; [reflexivity | exact Hin].
  - destruct rest as [|[o e] r]; [exact I|]. intros _. apply side_leaf. left. reflexivity.
  - cbn [fst]. split; [|exact Hok]. destruct rest' as [|[o e] r]; [reflexivity|]. cbn in Hst. lia.
Qed.

Example respects_example :
  climb_plain (Atom 1) [(OMath Add, Atom 2); (OMath Mul, Atom 3); (OMath Sub, Atom 4); (OPipe, Atom 5)]
  = Bin (Bin (Bin (Atom 1) (OMath Add) (Bin (Atom 2) (OMath Mul) (Atom 3))) (OMath Sub) (Atom 4)) OPipe (Atom 5).
Proof. reflexivity. Qed.

Fixpoint seq (e : expr) : list (bop + nat) :=
  match e with
  | Atom n => [inr n]
  | Bin l o r => seq l ++ inl o :: seq r
  end.

Fixpoint chain_seq (c : chain) : list (bop + nat) :=
  match c with
  | [] => []
  | (o, e) :: r => inl o :: seq e ++ chain_seq r
  end.

Lemma climb_seq fuel :
  (forall x rest m, let '(t, rest') := climb1 fuel x rest m in seq t ++ chain_seq rest' = seq x ++ chain_seq rest) /\
  (forall o rhs rest, let '(r, rest') := inner fuel o rhs rest in seq r ++ chain_seq rest' = seq rhs ++ chain_seq rest).
Proof.
  induction fuel as [|fuel [IH1 IH2]]; [split; intros; reflexivity|]. split.
  - intros x rest m. cbn [climb1]. destruct rest as [|[o rhs] rest0]; [reflexivity|].
    destruct (m <=? prec o); [|reflexivity].
    specialize (IH2 o rhs rest0). destruct (inner fuel o rhs rest0) as [rhs' rest1].
    specialize (IH1 (Bin x o rhs') rest1 m). destruct (climb1 fuel (Bin x o rhs') rest1 m) as [t rest'].
    rewrite IH1. cbn [seq chain_seq]. rewrite <- app_assoc. cbn [app]. rewrite IH2. reflexivity.
  - intros o rhs rest. cbn [inner]. destruct rest as [|[next e] rest0]; [reflexivity|].
    destruct ((prec o <? prec next) || (right_assoc o && (prec next =? prec o))); [|reflexivity].
    pose proof (IH1 rhs ((next, e) :: rest0) (prec next)) as H1.
    destruct (climb1 fuel rhs ((next, e) :: rest0) (prec next)) as [rhs' rest1].
    pose proof (IH2 o rhs' rest1) as H2. destruct (inner fuel o rhs' rest1) as [r rest'].
    rewrite H2. exact H1.
Qed.

Theorem climb_plain_seq x rest : seq (climb_plain x rest) = seq x ++ chain_seq rest.
Proof.
  destruct (climb_respects_table x rest) as [E _]. cbn zeta in E.
  pose proof (proj1 (climb_seq (S (2 * length rest))) x rest 0) as H. rewrite E in H. cbn [chain_seq] in H.
  rewrite app_nil_r in H. exact H.
Qed.

Definition atom (e : expr) : Prop := exists n, e = Atom n.

Lemma side_mono (P Q : expr -> Prop) R o e : (forall x, P x -> Q x) -> side P R o e -> side Q R o e.
Proof. intros H [x Hx | l o' r Hr]; [apply side_leaf, H, Hx | apply side_bin, Hr]. Qed.

Lemma okt_mono (P Q : expr -> Prop) e : (forall x, P x -> Q x) -> okt P e -> okt Q e.
Proof.
  intros H Hok. induction Hok as [x Hx | l o r _ IHl _ IHr Hsl Hsr]; [apply okt_leaf, H, Hx|].
  apply okt_bin; [exact IHl | exact IHr | eapply side_mono; eassumption | eapply side_mono; eassumption].
Qed.

Lemma okt_bin_inv l o r : okt atom (Bin l o r) -> okt atom l /\ okt atom r /\ side atom tighter_left o l /\ side atom tighter_right o r.
Proof. intros H. inversion H as [e [n Hn] | ? ? ? Hl Hr Hsl Hsr]; subst; [discriminate | auto]. Qed.

Lemma no_op_in_atom e o : atom e -> ~ In (inl o) (seq e).
Proof. intros [n ->] [H|[]]. discriminate. Qed.

(** [o1] is the operator at the root of [t]: what is inside an operand binds at least as tightly as its root *)
Lemma side_inside t : okt atom t -> forall R o o', side atom R o t -> In (inl o') (seq t) ->
  exists o1, R o1 o /\ prec o1 <= prec o'.
Proof.
  intros Hok. induction Hok as [x Hx | l o1 r _ IHl _ IHr Hsl Hsr]; intros R o o' Hs Hin.
  { exfalso. exact (no_op_in_atom _ _ Hx Hin). }
  inversion Hs as [e [n Hn] | ? ? ? HR]; subst; [discriminate|]. exists o1. split; [exact HR|].
  cbn [seq] in Hin. apply in_app_or in Hin as [Hin|[Hin|Hin]].
  - destruct (IHl _ _ _ Hsl Hin) as (o2 & Ht & Hge). unfold tighter_left in Ht. lia.
  - injection Hin as ->. lia.
  - destruct (IHr _ _ _ Hsr Hin) as (o2 & Ht & Hge). unfold tighter_right in Ht. lia.
Qed.

Lemma tighter_up (b : bool) o o1 o' :
  prec o < prec o1 \/ (prec o1 = prec o /\ right_assoc o = b) -> prec o1 <= prec o' ->
  prec o < prec o' \/ (prec o' = prec o /\ right_assoc o = b).
Proof.
  intros [H|[E A]] Hge; [left; lia|]. destruct (Nat.eq_dec (prec o') (prec o)); [right; split; assumption | left; lia].
Qed.

Lemma okt_inside l o r o' : okt atom (Bin l o r) ->
  (In (inl o') (seq l) -> tighter_left o' o) /\ (In (inl o') (seq r) -> tighter_right o' o).
Proof.
  intros H. destruct (okt_bin_inv _ _ _ H) as (Hl & Hr & Hsl & Hsr). split; intros Hin.
  - destruct (side_inside l Hl _ _ _ Hsl Hin) as (o1 & Ht & Hge). exact (tighter_up false _ _ _ Ht Hge).
  - destruct (side_inside r Hr _ _ _ Hsr Hin) as (o1 & Ht & Hge). exact (tighter_up true _ _ _ Ht Hge).
Qed.

Lemma split_earlier {A} (a : list A) x b : forall c y d, a ++ x :: b = c ++ y :: d -> length a < length c ->
  exists w, c = a ++ x :: w /\ b = w ++ y :: d.
Proof.
  induction a as [|h a IH]; intros c y d E Hlen.
  - destruct c as [|h' c]; [cbn in Hlen; lia|]. cbn in E. injection E as -> ->. exists c. split; reflexivity.
  - destruct c as [|h' c]; [cbn in Hlen; lia|]. cbn in E. injection E as -> E. cbn in Hlen.
    destruct (IH c y d E) as [w [-> ->]]; [lia|]. exists w. split; reflexivity.
Qed.

Lemma split_same {A} (a : list A) b : forall c d, a ++ b = c ++ d -> length a = length c -> a = c /\ b = d.
Proof.
  induction a as [|h a IH]; intros [|h' c] d E Hlen; try discriminate Hlen; [split; [reflexivity | exact E]|].
  injection E as -> E. injection Hlen as Hlen. destruct (IH c d E Hlen) as [-> ->]. split; reflexivity.
Qed.

Lemma seq_nonempty e : seq e <> [].
Proof. destruct e; cbn; [discriminate|]. intros H. apply app_eq_nil in H as [_ H]. discriminate. Qed.

Lemma seq_atom t n : seq t = [inr n] -> t = Atom n.
Proof.
  destruct t as [m|l o r]; cbn [seq]; [congruence|]. intros E. exfalso.
  destruct (seq l) as [|h [|? ?]] eqn:El; [exact (seq_nonempty _ El) | discriminate E..].
Qed.

(** an operator of one tree in the left operand of the other, and that one's operator in the right operand of the first *)
Lemma crossing_impossible l1 o1 r1 l2 o2 r2 w :
  okt atom (Bin l1 o1 r1) -> okt atom (Bin l2 o2 r2) -> seq l2 = seq l1 ++ inl o1 :: w -> seq r1 = w ++ inl o2 :: seq r2 -> False.
Proof.
  intros H1 H2 El Er.
  assert (In1 : In (inl o1) (seq l2)) by (rewrite El; apply in_or_app; right; left; reflexivity).
  assert (In2 : In (inl o2) (seq r1)) by (rewrite Er; apply in_or_app; right; left; reflexivity).
  apply (okt_inside _ _ _ _ H2) in In1. apply (okt_inside _ _ _ _ H1) in In2.
  destruct In1 as [?|[E A]], In2 as [?|[E' A']]; try lia. rewrite (assoc_by_level _ _ E') in A. congruence.
Qed.

Theorem table_tree_unique : forall t1 t2, okt atom t1 -> okt atom t2 -> seq t1 = seq t2 -> t1 = t2.
Proof.
  induction t1 as [n|l1 IHl o1 r1 IHr]; intros t2 H1 H2 E; [symmetry; apply seq_atom; symmetry; exact E|].
  destruct t2 as [m|l2 o2 r2]; [apply seq_atom, E|]. cbn [seq] in E.
  destruct (okt_bin_inv _ _ _ H1) as (Hl1 & Hr1 & _ & _). destruct (okt_bin_inv _ _ _ H2) as (Hl2 & Hr2 & _ & _).
  destruct (Nat.lt_trichotomy (length (seq l1)) (length (seq l2))) as [Hlt|[Heq|Hgt]].
  - exfalso. destruct (split_earlier _ _ _ _ _ _ E Hlt) as [w [El Er]]. exact (crossing_impossible _ _ _ _ _ _ _ H1 H2 El Er).
  - destruct (split_same _ _ _ _ E Heq) as [El Er]. injection Er as -> Er.
    rewrite (IHl l2 Hl1 Hl2 El), (IHr r2 Hr1 Hr2 Er). reflexivity.
  - exfalso. symmetry in E. destruct (split_earlier _ _ _ _ _ _ E Hgt) as [w [El Er]].
    exact (crossing_impossible _ _ _ _ _ _ _ H2 H1 El Er).
Qed.

(** inserting the parentheses that the table implies, or removing them, never changes the program *)
Theorem climb_is_the_table_tree : forall x rest t, atom x -> Forall (fun ot => atom (snd ot)) rest ->
  okt atom t -> seq t = seq x ++ chain_seq rest -> climb_plain x rest = t.
Proof.
  intros x rest t Hx Hrest Ht Hs. apply table_tree_unique; [|exact Ht|rewrite climb_plain_seq; symmetry; exact Hs].
  destruct (climb_respects_table x rest) as [_ Hok]. cbn zeta in Hok. eapply okt_mono; [|exact Hok].
  intros e [->|Hin]; [exact Hx|]. apply in_map_iff in Hin as [[o e'] [<- Hin]].
  exact (proj1 (Forall_forall _ _) Hrest _ Hin).
Qed.

Fixpoint label (o : option bop) (l : list (bop + nat)) : list (option bop * nat) :=
  match l with
  | [] => []
  | inl o' :: t => label (Some o') t
  | inr n :: t => (o, n) :: label None t
  end.

(* [relabel o] of [flat_chain] is [set_head (Some o)] *)
Definition set_head (o : option bop) (l : list (option bop * nat)) : list (option bop * nat) :=
  match l with (_, n) :: t => (o, n) :: t | [] => [] end.

Lemma set_head_flat o e k : set_head o (flat e ++ k) = set_head o (flat e) ++ k.
Proof.
  enough (flat e <> []) by (destruct (flat e) as [|[? ?] ?]; [contradiction | reflexivity]).
  induction e as [n|l IHl o' r _]; cbn [flat]; [discriminate|]. destruct (flat l); [contradiction | discriminate].
Qed.

Lemma label_seq e : forall o k, label o (seq e ++ k) = set_head o (flat e) ++ label None k.
Proof.
  induction e as [n|l IHl o' r IHr]; intros o k; [reflexivity|].
  cbn [seq flat]. rewrite <- app_assoc. cbn [app]. rewrite IHl. cbn [label]. rewrite IHr, set_head_flat, <- app_assoc. reflexivity.
Qed.

Lemma flat_head e : set_head None (flat e) = flat e.
Proof. induction e as [n|l IHl o r _]; [reflexivity|]. cbn [flat]. rewrite set_head_flat, IHl. reflexivity. Qed.

Lemma label_chain c : label None (chain_seq c) = flat_chain c.
Proof. induction c as [|[o e] c IH]; [reflexivity|]. cbn [chain_seq label flat_chain]. rewrite label_seq, IH. reflexivity. Qed.

Theorem climb_plain_flat x rest : flat (climb_plain x rest) = flat x ++ flat_chain rest.
Proof.
  pose proof (label_seq (climb_plain x rest) None []) as H. rewrite app_nil_r, climb_plain_seq, label_seq in H.
  rewrite !flat_head, label_chain, app_nil_r in H. symmetry. exact H.
Qed.
