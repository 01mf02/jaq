(** Paths agree with values: the path evaluators project onto the value evaluators. *)
From Coq Require Import List.
From JaqV Require Import Base.Stream Val.Err Val.Index Core.Run Proofs.MonadLaws.
Import ListNotations.

Lemma smap_stry_nil {A B} (f : A -> B) (s : str A) :
  smap f (stry s (fun _ => SNil)) = stry (smap f s) (fun _ => SNil).
Proof.
  induction s as [|x k IH|e| |]; cbn; try reflexivity; [apply SCons_ext, IH|destruct e; reflexivity].
Qed.

Lemma smap_sopt {A B} (f : A -> B) opt (s : str A) : smap f (sopt opt s) = sopt opt (smap f s).
Proof. destruct opt; cbn; [apply smap_stry_nil | reflexivity]. Qed.

Lemma smap_of_list {A B} (f : A -> B) l : smap f (of_list l) = of_list (map f l).
Proof. induction l as [|x l IH]; cbn; [reflexivity|]. apply SCons_ext, IH. Qed.

Lemma smap_of_res {A B} (f : A -> B) (r : res A) : smap f (of_res r) = of_res (rmap f r).
Proof. destruct r; reflexivity. Qed.

Lemma map_snd_enumerate {A} (l : list A) i : map snd (enumerate_from i l) = l.
Proof. revert i; induction l as [|x l IH]; intros i; cbn; [reflexivity|]. f_equal. apply IH. Qed.

Lemma key_values_values v :
  match vkey_values v, vvalues v with
  | Ok kvs, Ok vs => map snd kvs = vs
  | Err e1, Err e2 => e1 = e2
  | _, _ => False
  end.
Proof.
  destruct v; cbn; try reflexivity.
  rewrite map_map. cbn. apply map_snd_enumerate.
Qed.

Lemma part_paths_project p v pa : smap fst (part_paths p (v, pa)) = part_run p v.
Proof.
  destruct p as [i|[f|] [u|]]; cbn.
  - rewrite smap_of_res. destruct (vindex v i); reflexivity.
  - rewrite smap_of_res. destruct (vrange v (Some f, Some u)); reflexivity.
  - rewrite smap_of_res. destruct (vrange v (Some f, None)); reflexivity.
  - rewrite smap_of_res. destruct (vrange v (None, Some u)); reflexivity.
  - pose proof (key_values_values v) as H.
    destruct (vkey_values v) as [kvs|e1], (vvalues v) as [vs|e2]; try contradiction.
    + rewrite smap_of_list, map_map. cbn. rewrite <- H. reflexivity.
    + subst. reflexivity.
Qed.

Lemma path_paths_project ps : forall v pa, smap fst (path_paths ps (v, pa)) = path_run ps v.
Proof.
  induction ps as [|[p opt] r IH]; intros v pa; cbn [path_paths path_run].
  - reflexivity.
  - rewrite smap_over_sbind, <- (part_paths_project p v pa), <- smap_sopt, sbind_smap.
    apply sbind_ext. intros [x px]. apply IH.
Qed.
