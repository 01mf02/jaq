(** Codecs invert exactly: percent-encoding, HTML escaping, shell quoting, base64; for arbitrary bytes. *)
From Coq Require Import ZArith List Lia.
From JaqV Require Import Base.Bytes Std.Codec Proofs.DecodeLaws.
Import ListNotations.

Lemma uri_step c : forall n rest, uri_decode (S n) (uri_enc1 c ++ rest) = c :: uri_decode n rest.
Proof. destruct c; intros n rest; reflexivity. Qed.

Theorem uri_roundtrip s : uri_decode (length (uri_encode s)) (uri_encode s) = s.
Proof.
  apply (decode_all uri_enc1 uri_decode uri_step).
  - intros [|n]; reflexivity.
  - intros c. unfold uri_enc1. destruct (unreserved c); discriminate.
Qed.

Lemma html_step c n rest : html_unescape (S n) (html_esc1 c ++ rest) = c :: html_unescape n rest.
Proof.
  unfold html_esc1. cbv zeta.
  destruct (Z.eqb_spec (bz c) 60) as [E|_]; [rewrite <- (zb_bz c), E; reflexivity|].
  destruct (Z.eqb_spec (bz c) 62) as [E|_]; [rewrite <- (zb_bz c), E; reflexivity|].
  destruct (Z.eqb_spec (bz c) 38) as [E|N]; [rewrite <- (zb_bz c), E; reflexivity|].
  destruct (Z.eqb_spec (bz c) 39) as [E|_]; [rewrite <- (zb_bz c), E; reflexivity|].
  destruct (Z.eqb_spec (bz c) 34) as [E|_]; [rewrite <- (zb_bz c), E; reflexivity|].
  (* any other byte is no ampersand, and every entity begins with one *)
  assert (A : byte_eqb (zb 38) c = false) by (apply Z.eqb_neq; intros H; exact (N (eq_sym H))).
  cbn [app html_unescape match_entity entities lit of_ascii map starts_with]. rewrite A. reflexivity.
Qed.

Theorem html_roundtrip s : html_unescape (length (html_escape s)) (html_escape s) = s.
Proof.
  apply (decode_all html_esc1 html_unescape html_step).
  - intros [|n]; reflexivity.
  - intros c. unfold html_esc1. repeat (destruct (_ =? _)%Z; [discriminate|]). discriminate.
Qed.

(** shell: inside the quotes opened by @sh, one escaped byte is read back as that byte, staying inside quotes;
    a quote costs three steps, any other byte one *)
Lemma sh_step c : forall n rest acc, sh_word (S (S (S (S n)))) true (sh_esc1 c ++ rest) acc = sh_word (if Z.eqb (bz c) 39 then S n else S (S (S n))) true rest (c :: acc).
Proof.
  intros n rest acc. unfold sh_esc1. destruct (Z.eqb_spec (bz c) 39) as [E|N].
  - rewrite <- (zb_bz c), E. reflexivity.
  - cbn [app sh_word]. rewrite (proj2 (Z.eqb_neq _ _) N). reflexivity.
Qed.

Lemma sh_go s : forall n rest acc, (4 * length s <= n)%nat ->
  exists m, (n - 4 * length s <= m)%nat /\ sh_word n true (flat_map sh_esc1 s ++ rest) acc = sh_word m true rest (rev s ++ acc).
Proof.
  induction s as [|c s IH]; intros n rest acc Hn.
  - exists n. cbn. split; [lia | reflexivity].
  - cbn [flat_map length] in *. rewrite <- app_assoc.
    destruct n as [|[|[|[|n]]]]; try lia. rewrite sh_step.
    destruct (IH (if Z.eqb (bz c) 39 then S n else S (S (S n))) rest (c :: acc)) as [m [Hm He]];
      [destruct (Z.eqb (bz c) 39); lia|].
    exists m. split; [destruct (Z.eqb (bz c) 39); lia|]. rewrite He. cbn [rev]. rewrite <- app_assoc. reflexivity.
Qed.

(** a POSIX shell evaluating the word @sh produces recovers exactly the original bytes, and nothing else *)
Theorem sh_safe s : sh_word (4 * length s + 4) false (sh_quote s) [] = Some (s, []).
Proof.
  unfold sh_quote. replace (4 * length s + 4)%nat with (S (4 * length s + 3)) by lia.
  cbn [sh_word]. change (bz (zb 39) =? 39)%Z with true. cbn iota.
  destruct (sh_go s (4 * length s + 3) [zb 39] []) as [m [Hm He]]; [lia|].
  rewrite He. destruct m as [|[|m]]; try lia.
  cbn [sh_word]. change (bz (zb 39) =? 39)%Z with true. cbn iota. rewrite app_nil_r, rev_involutive. reflexivity.
Qed.

Local Open Scope Z_scope.

(** a test evaluated on the numbers below [n] holds of each of them *)
Lemma forallb_below (p : Z -> bool) n : forallb p (map Z.of_nat (seq 0 n)) = true -> forall z, 0 <= z < Z.of_nat n -> p z = true.
Proof. intros A z H. rewrite forallb_forall in A. apply A, in_map_iff. exists (Z.to_nat z). split; [lia|apply in_seq; lia]. Qed.

Lemma b64_val_char_all :
  forallb (fun k => match b64_val (b64_char k) with Some k' => k' =? k | None => false end) (map Z.of_nat (seq 0 64)) = true.
Proof. vm_compute. reflexivity. Qed.

Lemma b64_val_char k : 0 <= k < 64 -> b64_val (b64_char k) = Some k.
Proof.
  intros H. pose proof (forallb_below _ 64 b64_val_char_all k H) as A. cbv beta in A.
  destruct (b64_val (b64_char k)) as [k'|]; [|discriminate]. apply Z.eqb_eq in A. congruence.
Qed.

(* the padding character has no value *)
Lemma b64_char_not_pad k : 0 <= k < 64 -> byte_eqb (b64_char k) pad = false.
Proof.
  intros H. destruct (byte_eqb_spec (b64_char k) pad) as [E|]; [|reflexivity].
  apply b64_val_char in H. rewrite E in H. discriminate H.
Qed.

Lemma pad_eq : byte_eqb pad pad = true.
Proof. reflexivity. Qed.

(** three bytes as four sextets: each sextet is in range, the bytes are recovered from them, and a short last group
    ([b] and [c], or [c], zero) leaves no stray bits; [n] is a variable so that the short groups fit as they are written *)
Lemma unquad a b c n : 0 <= a < 256 -> 0 <= b < 256 -> 0 <= c < 256 -> n = a * 65536 + b * 256 + c ->
  let x := n / 262144 in let y := (n / 4096) mod 64 in let z := (n / 64) mod 64 in let w := n mod 64 in
  (0 <= x < 64 /\ 0 <= y < 64 /\ 0 <= z < 64 /\ 0 <= w < 64)
  /\ (x * 4 + y / 16 = a /\ y mod 16 * 16 + z / 4 = b /\ z mod 4 * 64 + w = c)
  /\ (b = 0 -> c = 0 -> y mod 16 = 0) /\ (c = 0 -> z mod 4 = 0).
Proof. intros Ha Hb Hc ->. cbv zeta. repeat split; Z.div_mod_to_equations; lia. Qed.

(** and back: four sextets as three bytes, each in range, whose sextets they are *)
Lemma quad x y z w : 0 <= x < 64 -> 0 <= y < 64 -> 0 <= z < 64 -> 0 <= w < 64 ->
  let a := x * 4 + y / 16 in let b := (y mod 16) * 16 + z / 4 in let c := (z mod 4) * 64 + w in
  let n := a * 65536 + b * 256 + c in
  0 <= a < 256 /\ 0 <= b < 256 /\ 0 <= c < 256 /\ n / 262144 = x /\ (n / 4096) mod 64 = y /\ (n / 64) mod 64 = z /\ n mod 64 = w.
Proof. intros Hx Hy Hz Hw. cbv zeta. repeat split; Z.div_mod_to_equations; lia. Qed.

(** every byte string survives encoding and strict decoding *)
Theorem base64_roundtrip : forall n s, (length s <= n)%nat -> b64_decode (S n) (b64_encode s) = Some s.
Proof.
  induction n as [n IH] using lt_wf_ind. intros s Hn.
  destruct s as [|a [|b [|c r]]]; [reflexivity| | |]; cbn [b64_encode].
  - destruct (unquad (bz a) 0 0 (bz a * 65536) (bz_range a)) as ((Hx & Hy & _) & (Ea & _) & E1 & _); [lia..|].
    cbn [b64_decode]. rewrite !b64_val_char, pad_eq, E1 by easy. cbn. rewrite Ea, zb_bz. reflexivity.
  - destruct (unquad (bz a) (bz b) 0 (bz a * 65536 + bz b * 256) (bz_range a) (bz_range b)) as ((Hx & Hy & Hz & _) & (Ea & Eb & _) & _ & E1);
      [lia..|].
    cbn [b64_decode]. rewrite (b64_char_not_pad _ Hz), !b64_val_char, pad_eq, E1 by easy. cbn. rewrite Ea, Eb, !zb_bz. reflexivity.
  - destruct (unquad (bz a) (bz b) (bz c) _ (bz_range a) (bz_range b) (bz_range c) eq_refl) as ((Hx & Hy & Hz & Hw) & (Ea & Eb & Ec) & _).
    destruct r as [|d r'].
    + cbn [b64_encode b64_decode]. rewrite (b64_char_not_pad _ Hz), (b64_char_not_pad _ Hw), !b64_val_char by assumption.
      cbn [andb]. rewrite Ea, Eb, Ec, !zb_bz. reflexivity.
    + remember (d :: r') as r eqn:Er.
      assert (Hne : b64_encode r <> []) by (subst r; destruct r' as [|? [|? ?]]; cbn; discriminate).
      cbn [b64_decode]. destruct (b64_encode r) as [|e0 er] eqn:Ee; [contradiction|].
      rewrite !b64_val_char by assumption. cbn [length] in Hn. destruct n as [|n]; [lia|].
      rewrite <- Ee, (IH n) by lia. rewrite Ea, Eb, Ec, !zb_bz. reflexivity.
Qed.
