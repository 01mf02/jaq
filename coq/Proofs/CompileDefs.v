(** Compiler correctness as in Proofs/CompileCorrect.v, with (possibly recursive, nested) definitions without parameters
    that capture the variables and labels in scope.  The named semantics keeps closures (body, the environment at the
    definition, the older definitions); the compiled code reaches a definition through the table of definitions and drops
    the bindings made since the definition ([skip]).  The theorem holds for every table that contains what the compiler
    allocated. *)
From Coq Require Import ZArith Bool List Lia.
From JaqV Require Import Base.Bytes Base.Stream Val.Num Val.Val Val.Err Val.Arith Core.Syntax Core.Compile Core.Natives Core.Run
  Proofs.MonadLaws Proofs.CompileCommon.
From JaqV Require Proofs.CompileCorrect.
Import ListNotations.

Section CD.
  Variable g : genv.
  Variable d : val -> bytes.
  Variable nr : nat -> bytes -> list narg -> val -> option (str val).
  Notation run := (run d nr).
  Notation explode := (explode d nr).

  Definition nenv := list (cbind * bind).
  Fixpoint lookup (rho : nenv) (x : cbind) : option bind :=
    match rho with [] => None | (y, a) :: r => if cbind_eqb x y then Some a else lookup r x end.

  Definition clo := (bytes * pterm * nenv)%type.
  Fixpoint find_def (f : bytes) (phi : list clo) : option (pterm * nenv * list clo) :=
    match phi with
    | [] => None
    | (f', body, rd) :: r => if bytes_eqb f f' then Some (body, rd, phi) else find_def f r
    end.

  (** definitions in front of a term cost no fuel: the compiled term is that of the term after them *)
  Fixpoint strip (t : pterm) : list (bytes * pterm) * pterm :=
    match t with
    | PDef [PDefn f [] body] t' => let '(ds, t0) := strip t' in ((f, body) :: ds, t0)
    | _ => ([], t)
    end.
  Definition push_defs (ds : list (bytes * pterm)) (rho : nenv) (phi : list clo) : list clo :=
    fold_left (fun ph fb => (fst fb, snd fb, rho) :: ph) ds phi.

  Notation fold_go := CompileCorrect.fold_go.

  Fixpoint sem (n : nat) (t : pterm) (rho : nenv) (phi0 : list clo) (lab : nat) (v : val) {struct n} : str val :=
    match n with
    | O => SBot
    | S n =>
        let '(ds, t0) := strip t in
        let phi := push_defs ds rho phi0 in
        let cart := fun l r => sbind (sem n l rho phi lab v) (fun x => smap (fun y => (x, y)) (sem n r rho phi lab v)) in
        match t0 with
        | PId => sone v
        | PNum x => sone (match int_literal x with Some i => vint i | None => Num (from_str x) end)
        | PVar x => match lookup rho (CVar x) with Some (BVar a) => sone a | _ => SUnk end
        | PBreak x => match lookup rho (CLabel x) with Some (BLabel l) => SExn (XBreak l) | _ => SUnk end
        | PLabel x t => slabel (S lab) (sem n t ((CLabel x, BLabel (S lab)) :: rho) phi (S lab) v)
        | PCall f [] =>
            match find_def f phi with
            | Some (body, rd, phis) => match n with O => SBot | S _ => sem n body rd phis lab v end
            | None => SUnk
            end
        | PNeg t => sbind (sem n t rho phi lab v) (fun x => of_res (vneg x))
        | PArr (Some t) => collect_then (sem n t rho phi lab v) (fun l => sone (Arr l))
        | PTryCatch t (Some c) => stry (sem n t rho phi lab v) (fun e => sem n c rho phi lab (err_val d e))
        | PIte [(i, th)] (Some el) => sbind (sem n i rho phi lab v) (fun x => sem n (if as_bool x then th else el) rho phi lab v)
        | PBinOp l op r =>
            match op with
            | BPipe None => sbind (sem n l rho phi lab v) (fun y => sem n r rho phi lab y)
            | BPipe (Some (PPVar x)) => sbind (sem n l rho phi lab v) (fun y => sem n r ((CVar x, BVar y) :: rho) phi lab v)
            | BComma => sapp (sem n l rho phi lab v) (fun _ => sem n r rho phi lab v)
            | BAlt => match sfilter as_bool (sem n l rho phi lab v) with SNil => sem n r rho phi lab v | s => s end
            | BMath o => sbind (cart l r) (fun xy => of_res_opt (math_run o (fst xy) (snd xy)))
            | BCmp o => smap (fun xy => Bool (cmp_run o (fst xy) (snd xy))) (cart l r)
            | BOr => sbind (sem n l rho phi lab v) (fun x => if Bool.eqb (as_bool x) true then sone (Bool true)
                                                         else smap (fun y => Bool (as_bool y)) (sem n r rho phi lab v))
            | BAnd => sbind (sem n l rho phi lab v) (fun x => if Bool.eqb (as_bool x) false then sone (Bool false)
                                                          else smap (fun y => Bool (as_bool y)) (sem n r rho phi lab v))
            | _ => SUnk
            end
        | PPath t path => sbind (sem n t rho phi lab v) (fun y => sbind (sexplode n path rho phi lab v) (fun ps => path_run ps y))
        | PFold name xs (PPVar x) (init :: upd :: rest) =>
            let xsv := match n with O => SBot | S n' => sem n' xs rho phi lab v end in
            let step := fun y acc => sem n upd ((CVar x, BVar y) :: rho) phi lab acc in
            if bytes_eqb name name_reduce then
              match rest with
              | [] => sbind (sem n init rho phi lab v) (fold_go step (fun _ _ => SNil) sone xsv)
              | _ => SUnk
              end
            else if bytes_eqb name name_foreach then
              match rest with
              | [] => sbind (sem n init rho phi lab v) (fold_go step (fun _ z => sone z) (fun _ => SNil) xsv)
              | [proj] => sbind (sem n init rho phi lab v) (fold_go step (fun y z => sem n proj ((CVar x, BVar y) :: rho) phi lab z) (fun _ => SNil) xsv)
              | _ => SUnk
              end
            else SUnk
        | _ => SUnk
        end
    end

  with sexplode (n : nat) (path : list (ppart * bool)) (rho : nenv) (phi : list clo) (lab : nat) (v : val) {struct n}
    : str (list (vpart * bool)) :=
    match n with
    | O => SBot
    | S n =>
        match path with
        | [] => sone []
        | (p, opt) :: rest =>
            let ps :=
              match p with
              | PIndex i => smap VIndex (sem n i rho phi lab v)
              | PRange None None => sone (VRange None None)
              | PRange (Some f) None => smap (fun x => VRange (Some x) None) (sem n f rho phi lab v)
              | PRange None (Some u) => smap (fun x => VRange None (Some x)) (sem n u rho phi lab v)
              | PRange (Some f) (Some u) =>
                  sbind (sem n f rho phi lab v) (fun x => smap (fun y => VRange (Some x) (Some y)) (sem n u rho phi lab v))
              end in
            sbind ps (fun p' => smap (fun r => (p', opt) :: r) (sexplode n rest rho phi lab v))
        end
    end.

  Inductive frag : list cbind -> list bytes -> nat -> pterm -> Prop :=
  | f_id b fs n : frag b fs (S n) PId
  | f_num b fs n x : frag b fs (S n) (PNum x)
  | f_var b fs n x : In (CVar x) b -> frag b fs (S n) (PVar x)
  | f_neg b fs n t : frag b fs n t -> frag b fs (S n) (PNeg t)
  | f_arr b fs n t : frag b fs n t -> frag b fs (S n) (PArr (Some t))
  | f_try b fs n t c : frag b fs n t -> frag b fs n c -> frag b fs (S n) (PTryCatch t (Some c))
  | f_ite b fs n i th el : frag b fs n i -> frag b fs n th -> frag b fs n el -> frag b fs (S n) (PIte [(i, th)] (Some el))
  | f_pipe b fs n l r : frag b fs n l -> frag b fs n r -> frag b fs (S n) (PBinOp l (BPipe None) r)
  | f_bind b fs n l x r : frag b fs n l -> frag (CVar x :: b) fs n r -> frag b fs (S (S n)) (PBinOp l (BPipe (Some (PPVar x))) r)
  | f_comma b fs n l r : frag b fs n l -> frag b fs n r -> frag b fs (S n) (PBinOp l BComma r)
  | f_alt b fs n l r : frag b fs n l -> frag b fs n r -> frag b fs (S n) (PBinOp l BAlt r)
  | f_math b fs n l o r : frag b fs n l -> frag b fs n r -> frag b fs (S n) (PBinOp l (BMath o) r)
  | f_cmp b fs n l o r : frag b fs n l -> frag b fs n r -> frag b fs (S n) (PBinOp l (BCmp o) r)
  | f_or b fs n l r : frag b fs n l -> frag b fs n r -> frag b fs (S n) (PBinOp l BOr r)
  | f_and b fs n l r : frag b fs n l -> frag b fs n r -> frag b fs (S n) (PBinOp l BAnd r)
  | f_path b fs n t ps : frag b fs n t -> frag_parts b fs n ps -> frag b fs (S n) (PPath t ps)
  | f_reduce b fs n xs x init upd : frag b fs n xs -> frag b fs (S n) init -> frag (CVar x :: b) fs (S n) upd ->
      frag b fs (S (S n)) (PFold name_reduce xs (PPVar x) [init; upd])
  | f_foreach b fs n xs x init upd : frag b fs n xs -> frag b fs (S n) init -> frag (CVar x :: b) fs (S n) upd ->
      frag b fs (S (S n)) (PFold name_foreach xs (PPVar x) [init; upd])
  | f_foreach3 b fs n xs x init upd proj : frag b fs n xs -> frag b fs (S n) init -> frag (CVar x :: b) fs (S n) upd ->
      frag (CVar x :: b) fs (S n) proj -> frag b fs (S (S n)) (PFold name_foreach xs (PPVar x) [init; upd; proj])
  | f_label b fs n x t : frag (CLabel x :: b) fs n t -> frag b fs (S n) (PLabel x t)
  | f_break b fs n x : In (CLabel x) b -> frag b fs (S n) (PBreak x)
  | f_call b fs n f : In f fs -> frag b fs (S n) (PCall f [])
  | f_def b fs n f body t : frag b (f :: fs) n body -> frag b (f :: fs) (S n) t -> frag b fs (S (S n)) (PDef [PDefn f [] body] t)
  with frag_parts : list cbind -> list bytes -> nat -> list (ppart * bool) -> Prop :=
  | fp_nil b fs n : frag_parts b fs n []
  | fp_index b fs n i o ps : frag b fs n i -> frag_parts b fs n ps -> frag_parts b fs n ((PIndex i, o) :: ps)
  | fp_all b fs n o ps : frag_parts b fs n ps -> frag_parts b fs n ((PRange None None, o) :: ps)
  | fp_from b fs n f o ps : frag b fs n f -> frag_parts b fs n ps -> frag_parts b fs n ((PRange (Some f) None, o) :: ps)
  | fp_upto b fs n u o ps : frag b fs n u -> frag_parts b fs n ps -> frag_parts b fs n ((PRange None (Some u), o) :: ps)
  | fp_both b fs n f u o ps : frag b fs n f -> frag b fs n u -> frag_parts b fs n ps -> frag_parts b fs n ((PRange (Some f) (Some u), o) :: ps).

  Scheme frag_ind2 := Minimality for frag Sort Prop
    with frag_parts_ind2 := Minimality for frag_parts Sort Prop.
  Combined Scheme frag_mutind from frag_ind2, frag_parts_ind2.

  Definition scoped (b : list cbind) (e : env) : Prop := forall x, In x b -> index_of x (e_vars e) 0 <> None.
  Definition is_def_entry (fe : fentry) : Prop :=
    f_arity fe = 0 /\ exists kinds id, f_kind fe = FParent kinds id \/ exists tr, f_kind fe = FSibling kinds id tr.
  Definition fscoped (fs : list bytes) (e : env) : Prop :=
    forall f, In f fs -> exists fe, find_fun f 0 (e_funs e) = Some fe.
  Definition kind_ok (x : cbind) (a : bind) : Prop :=
    match x, a with CVar _, BVar _ | CLabel _, BLabel _ => True | _, _ => False end.
  Definition agrees (e : env) (c : ctx) (rho : nenv) : Prop :=
    map fst rho = e_vars e /\ (exists rest, vars c = map snd rho ++ rest) /\ Forall (fun p => kind_ok (fst p) (snd p)) rho.

  Definition extends (s s' : cst) : Prop :=
    c_errs s' = c_errs s /\ (length (c_defs s) <= length (c_defs s'))%nat
    /\ forall i, (i < length (c_defs s))%nat -> nth_error (c_defs s') i = nth_error (c_defs s) i.
  Definition covers (s s' : cst) (defs : list term) : Prop :=
    forall i, (length (c_defs s) <= i < length (c_defs s'))%nat -> nth_error defs i = nth_error (c_defs s') i.

  Lemma covers_refl s defs : covers s s defs.
  Proof. exact (CompileCommon.covers_refl s defs). Qed.

  Definition entry_id (fe : fentry) : option nat :=
    match f_kind fe with FParent _ id | FSibling _ id _ => Some id | FArg => None end.

  (** the entries [fes] are the closures [phi], in order; each closure's environment is what remains of [rho] after dropping
      the bindings made since its definition; its compiled body is in the table and computes the semantics of its body for
      every smaller fuel *)
  Inductive funs_rel (defs : list term) (fuel : nat) : list fentry -> nenv -> list clo -> Prop :=
  | fr_nil rho : funs_rel defs fuel [] rho []
  | fr_cons fe fes rho f body rd phi id k :
      f_name fe = f -> f_arity fe = 0 -> entry_id fe = Some id -> f_vars fe = length rd ->
      (exists pushed, rho = pushed ++ rd) ->
      nth_error defs id = Some k ->
      (forall fuel', (fuel' < fuel)%nat -> forall c v, (exists rest, vars c = map snd rd ++ rest) ->
         run defs fuel' k c v = sem fuel' body rd ((f, body, rd) :: phi) (labels c) v) ->
      funs_rel defs fuel fes rd phi ->
      funs_rel defs fuel (fe :: fes) rho ((f, body, rd) :: phi).

  Lemma funs_rel_fuel defs fuel fuel' fes : forall rho phi, (fuel' <= fuel)%nat ->
    funs_rel defs fuel fes rho phi -> funs_rel defs fuel' fes rho phi.
  Proof.
    induction fes as [|fe fes IH]; intros rho phi Hle H; inversion H as [|? ? ? ? ? ? ? ? ? N A I V P T C R]; subst; [constructor|].
    econstructor; eauto. intros f'' Hf''. apply C. lia.
  Qed.

  Lemma funs_rel_find defs fuel fes : forall rho phi f fe,
    funs_rel defs fuel fes rho phi -> find_fun f 0 fes = Some fe ->
    exists body rd phis id k pushed,
      find_def f phi = Some (body, rd, (f, body, rd) :: phis) /\ entry_id fe = Some id /\ f_vars fe = length rd
      /\ rho = pushed ++ rd /\ nth_error defs id = Some k
      /\ (forall fuel', (fuel' < fuel)%nat -> forall c v, (exists rest, vars c = map snd rd ++ rest) ->
            run defs fuel' k c v = sem fuel' body rd ((f, body, rd) :: phis) (labels c) v).
  Proof.
    induction fes as [|fe0 fes IH]; intros rho phi f fe H Hf; [discriminate|].
    inversion H as [|? ? ? f0 body rd phi0 id k N A I V (pushed & P) T C R]; subst. cbn [find_fun] in Hf. cbn [find_def].
    rewrite A in Hf. cbn [Nat.eqb] in Hf. rewrite andb_true_r in Hf.
    destruct (bytes_eqb_spec f (f_name fe0)) as [E|E].
    - injection Hf as <-. subst f. exists body, rd, phi0, id, k, pushed. repeat split; auto.
    - destruct (IH rd phi0 f fe R Hf) as (body' & rd' & phis & id' & k' & pushed' & F & I' & V' & P' & T' & C').
      exists body', rd', phis, id', k', (pushed ++ pushed'). rewrite F. repeat split; auto. rewrite P'. rewrite app_assoc. reflexivity.
  Qed.

  Lemma entry_id_fun fe id : entry_id fe = Some id -> exists kinds, fun_entry fe = Some (id, kinds).
  Proof. unfold entry_id, fun_entry. destruct (f_kind fe); [discriminate|..]; intros [= ->]; eauto. Qed.

  Lemma funs_push defs fuel fes rho phi xa : funs_rel defs fuel fes rho phi -> funs_rel defs fuel fes (xa :: rho) phi.
  Proof.
    intros H. destruct H as [rho|fe fes rho f body rd phi id k H1 H2 H3 H4 (q & ->) H6 H7 H8]; [constructor|].
    econstructor; eauto. exists (xa :: q). reflexivity.
  Qed.

  Lemma sem_def n f body t rho phi lab v :
    sem n (PDef [PDefn f [] body] t) rho phi lab v = sem n t rho ((f, body, rho) :: phi) lab v.
  Proof. destruct n; [reflexivity|]. cbn [sem strip]. destruct (strip t) as [ds t0]. reflexivity. Qed.

  Definition defs_sim : sim := pos_sim sem sexplode funs_rel.
  Lemma defs_sim_ok : sim_ok d nr defs_sim.
  Proof.
    apply pos_sim_ok; try reflexivity.
    - split; reflexivity.
    - intros defs fuel fes rho phi. apply funs_rel_fuel. lia.
    - exact funs_push.
  Qed.

  Notation runs_as := (runs_as d nr defs_sim).
  Notation compiles := (compiles g d nr defs_sim).
  Notation compiles_parts := (compiles_parts g d nr defs_sim).

  Notation funs0 fs := (defined (map (fun f : bytes => (f, 0%nat)) fs)).
  Lemma fscoped_defined fs e : fscoped fs e -> funs0 fs (e_funs e).
  Proof. intros H f ar Hin. apply in_map_iff in Hin as (f0 & [= <- <-] & H0). exact (H f0 H0). Qed.

  Lemma call_runs e f fe k defs : find_fun f 0 (e_funs e) = Some fe -> call_of e fe [] k -> runs_as e k (PCall f []) defs.
  Proof.
    intros Hfe LK [|fuel] c [rho phi] v [Hag Hfr]; [reflexivity|]. cbn [fst snd] in Hag, Hfr. cbn [defs_sim pos_sim Sem fst snd].
    destruct (funs_rel_find defs (S fuel) _ rho phi f fe Hfr Hfe) as (body & rd & phis & id & kb & pushed & F & I & V & P & T & C).
    destruct (entry_id_fun fe id I) as (kinds & K). destruct (call_of_def _ _ _ _ _ _ K LK) as (typ & ->).
    cbn [Run.run sem strip push_defs fold_left]. rewrite T, F. destruct fuel as [|fuel]; [reflexivity|].
    unfold binds. rewrite combine_nil. cbn [bind_vars]. rewrite sbind_sone_l, (C (S fuel) ltac:(lia)); [reflexivity|].
    destruct Hag as (Hmm & (rest & Hv) & _). exists rest. rewrite V.
    apply (skip_pushed e c pushed rd (map snd pushed)); [congruence|apply map_length|rewrite Hv, P, map_app, <- app_assoc; reflexivity].
  Qed.

  (** the compiled body computes the semantics of the body at every fuel, given that it does so at the smaller ones ([CL], by
      induction on the fuel); so the closure is related to its entry, whether the entry is the one the body sees or the one
      the rest of the term sees *)
  Lemma def_runs f body t e id kb k trb defs : nth_error defs id = Some kb ->
    runs_as (push_parent f [] id e) kb body defs -> runs_as (push_sibling f [] id trb e) k t defs ->
    runs_as e k (PDef [PDefn f [] body] t) defs.
  Proof.
    intros Hdid R2 R4 fuel c [rho phi] v [Hag Hfr]. cbn [fst snd] in Hag, Hfr. cbn [defs_sim pos_sim Sem fst snd]. rewrite sem_def.
    assert (FV : total e = length rho) by (destruct Hag as (Hmm & _); unfold total; rewrite <- Hmm, map_length; reflexivity).
    assert (CL : forall fuel', (fuel' <= fuel)%nat -> forall c' v', (exists rest, vars c' = map snd rho ++ rest) ->
                   run defs fuel' kb c' v' = sem fuel' body rho ((f, body, rho) :: phi) (labels c') v').
    { refine (below_ind _ fuel _). intros fuel' Hle IHf c' v' Hc'. apply (R2 fuel' c' (rho, (f, body, rho) :: phi) v'). split.
      - destruct Hag as (Hmm & _ & Hk). repeat split; assumption.
      - eapply fr_cons; try reflexivity; [exact FV|exists []; reflexivity|exact Hdid| |apply (funs_rel_fuel defs fuel fuel'); assumption].
        intros fuel'' Hlt. exact (IHf fuel'' Hlt). }
    apply (R4 fuel c (rho, (f, body, rho) :: phi) v). split; [exact Hag|].
    eapply fr_cons; try reflexivity; [exact FV|exists []; reflexivity|exact Hdid| |exact Hfr].
    intros fuel' Hf'. apply CL. lia.
  Qed.

  Lemma compile_defs_mut :
    (forall b fs n t, frag b fs n t -> compiles b (funs0 fs) n t)
    /\ (forall b fs n ps, frag_parts b fs n ps -> compiles_parts b (funs0 fs) n ps).
  Proof.
    apply frag_mutind; intros.
    - apply (compiles_id defs_sim_ok).
    - apply (compiles_num defs_sim_ok).
    - apply (compiles_var defs_sim_ok); assumption.
    - apply (compiles_neg defs_sim_ok); assumption.
    - apply (compiles_arr defs_sim_ok); assumption.
    - apply (compiles_try defs_sim_ok); assumption.
    - apply (compiles_ite defs_sim_ok); assumption.
    - apply (compiles_pipe defs_sim_ok); assumption.
    - apply (compiles_bind defs_sim_ok); assumption.
    - apply (compiles_comma defs_sim_ok); assumption.
    - apply (compiles_alt defs_sim_ok); assumption.
    - apply (compiles_binop defs_sim_ok); [exact I|assumption..].
    - apply (compiles_binop defs_sim_ok); [exact I|assumption..].
    - apply (compiles_binop defs_sim_ok); [exact I|assumption..].
    - apply (compiles_binop defs_sim_ok); [exact I|assumption..].
    - apply (compiles_path defs_sim_ok); assumption.
    - apply (compiles_reduce defs_sim_ok); assumption.
    - apply (compiles_foreach defs_sim_ok); assumption.
    - apply (compiles_foreach3 defs_sim_ok); assumption.
    - apply (compiles_label defs_sim_ok); assumption.
    - apply (compiles_break defs_sim_ok); assumption.
    - (* call *) apply compiles_call with (binds_as := fun _ _ _ _ => True);
        [intros e Hfs; exact (Hfs f 0%nat (in_map _ _ _ H))|apply (compiles_args_nil defs_sim_ok); trivial|].
      intros e [|] fe k defs Hfe LA LK _; [|discriminate]. exact (call_runs e f fe k defs Hfe LK).
    - apply compiles_def with (b1 := b) (Q1 := funs0 (f :: fs)) (Q3 := funs0 (f :: fs)); try assumption; try reflexivity.
      + intros e id Hsc Hfs. split; [exact Hsc|]. apply defined_push; [reflexivity..|exact Hfs].
      + intros e id trb Hfs. apply defined_push; [reflexivity..|exact Hfs].
      + apply def_runs.
    - apply (compiles_parts_nil defs_sim_ok).
    - apply (compiles_parts_cons defs_sim_ok); [|assumption]; cbn; auto.
    - apply (compiles_parts_cons defs_sim_ok); [|assumption]; cbn; auto.
    - apply (compiles_parts_cons defs_sim_ok); [|assumption]; cbn; auto.
    - apply (compiles_parts_cons defs_sim_ok); [|assumption]; cbn; auto.
    - apply (compiles_parts_cons defs_sim_ok); [|assumption]; cbn; auto.
  Qed.

  Theorem compile_defs b fs n t : frag b fs n t -> forall m e s tr, (n <= m)%nat -> scoped b e -> fscoped fs e ->
    exists k trr s', c_term g m e s t tr = ((k, trr), s') /\ extends s s'
      /\ forall defs, covers s s' defs -> forall fuel c rho phi v, agrees e c rho -> funs_rel defs fuel (e_funs e) rho phi ->
          run defs fuel k c v = sem fuel t rho phi (labels c) v.
  Proof.
    intros H m e s tr Hm Hsc Hfs. destruct (proj1 compile_defs_mut b fs n t H m e s tr Hm Hsc (fscoped_defined fs e Hfs)) as (k & trr & s' & E & X & R).
    exists k, trr, s'. split; [exact E|]. split; [exact X|]. intros defs Hc fuel c rho phi v Hag Hfr. exact (R defs Hc fuel c (rho, phi) v (conj Hag Hfr)).
  Qed.

  Corollary compile_defs_closed n t : frag [] [] n t ->
    exists k trr s', c_term g n empty_env empty_cst t [] = ((k, trr), s') /\ c_errs s' = 0%nat
      /\ forall fuel v, run (c_defs s') fuel k {| vars := []; labels := 0 |} v = sem fuel t [] [] 0 v.
  Proof.
    intros H. destruct (compile_defs [] [] n t H n empty_env empty_cst [] (le_n _)) as (k & trr & s' & E & X & R).
    - intros x [].
    - intros f [].
    - exists k, trr, s'. split; [exact E|]. split; [exact (proj1 X)|]. intros fuel v.
      apply (R (c_defs s') ltac:(intros i Hi; reflexivity) fuel {| vars := []; labels := 0 |} [] [] v).
      + repeat split; [exists []; reflexivity|constructor].
      + constructor.
  Qed.
End CD.

(** 1 as $x | def f: if . then (def g: $x; g) else ($x | f) end; f *)
Definition defs_ex : pterm :=
  let vx := of_ascii [36; 120]%Z in let f := of_ascii [102]%Z in let g := of_ascii [103]%Z in
  PBinOp (PNum (of_ascii [49]%Z)) (BPipe (Some (PPVar vx)))
    (PDef [PDefn f [] (PIte [(PId, PDef [PDefn g [] (PVar vx)] (PCall g []))] (Some (PBinOp (PVar vx) (BPipe None) (PCall f []))))]
       (PCall f [])).
Example frag_defs_ex : frag [] [] 12 defs_ex.
Proof.
  unfold defs_ex. cbv zeta. apply f_bind; [constructor|]. apply f_def.
  - apply f_ite; [constructor| |].
    + apply f_def; [apply f_var; left; reflexivity|apply f_call; left; reflexivity].
    + apply f_pipe; [apply f_var; left; reflexivity|apply f_call; left; reflexivity].
  - apply f_call. left. reflexivity.
Qed.
Example sem_defs_ex d : sem d 12 defs_ex [] [] 0 Null = sone (vint 1).
Proof. vm_compute. reflexivity. Qed.
