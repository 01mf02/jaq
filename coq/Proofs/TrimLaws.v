(** C12: the natives of Std/Natives.v on a byte string [x] with argument [p]: `startswith` is [is_prefix p x], `endswith` is
    [is_suffix p x], `ltrimstr` gives [skipn (length p) x] if [is_prefix p x] and `rtrimstr` gives
    [firstn (length x - length p) x] if [is_suffix p x] (else the input).  The tests are "is a prefix / suffix", the trims
    remove exactly that prefix / suffix, so that `ltrimstr($p) | $p + .` and `rtrimstr($p) | . + $p` give the string back
    whenever the test holds. *)
From Coq Require Import ZArith List.
From Coq Require Import Init.Byte.
From JaqV Require Import Base.Bytes Val.Arith Std.Natives.
Import ListNotations.

Lemma is_prefix_firstn (p x : bytes) : is_prefix p x = bytes_eqb (firstn (length p) x) p.
Proof.
  revert x. induction p as [|b p IH]; intros [|a x]; try reflexivity.
  cbn [is_prefix length firstn bytes_eqb]. rewrite IH. unfold byte_eqb. rewrite Z.eqb_sym. reflexivity.
Qed.

Lemma ltrim_is_the_rest (p t : bytes) : skipn (length p) (p ++ t) = t.
Proof. rewrite skipn_app, Nat.sub_diag, skipn_all. reflexivity. Qed.

Lemma rtrim_is_the_rest (p t : bytes) : firstn (length (t ++ p) - length p) (t ++ p) = t.
Proof.
  rewrite app_length, Nat.add_sub, firstn_app, Nat.sub_diag, firstn_all. apply app_nil_r.
Qed.

Lemma is_prefix_spec (p x : bytes) : is_prefix p x = true <-> exists t, x = p ++ t.
Proof.
  rewrite is_prefix_firstn. destruct (bytes_eqb_spec (firstn (length p) x) p) as [E|N]; split; try discriminate.
  - intros _. exists (skipn (length p) x). rewrite <- E at 1. symmetry. apply firstn_skipn.
  - reflexivity.
  - intros [t ->]. destruct N. rewrite firstn_app, Nat.sub_diag, firstn_all. apply app_nil_r.
Qed.

Lemma is_suffix_spec (p x : bytes) : is_suffix p x = true <-> exists t, x = t ++ p.
Proof.
  unfold is_suffix. rewrite is_prefix_spec. split.
  - intros [t E]. exists (rev t). apply (f_equal (@rev byte)) in E. rewrite rev_involutive, rev_app_distr, rev_involutive in E. exact E.
  - intros [t ->]. exists (rev t). rewrite rev_app_distr. reflexivity.
Qed.

Lemma ltrim_restores (p x : bytes) : is_prefix p x = true -> p ++ skipn (length p) x = x.
Proof. intros H. apply is_prefix_spec in H as [t ->]. rewrite ltrim_is_the_rest. reflexivity. Qed.

Lemma rtrim_restores (p x : bytes) : is_suffix p x = true -> firstn (length x - length p) x ++ p = x.
Proof. intros H. apply is_suffix_spec in H as [t ->]. rewrite rtrim_is_the_rest. reflexivity. Qed.
