(** Precedence climbing: the levels and associativities are those of the manual's table, and the grouping of every pair and
    triple of operators is the one the table implies. *)
From Coq Require Import Bool List Arith.
From JaqV Require Import Val.Err Parse.PrecClimb.
Import ListNotations.

(** the in-order reading of a chain in the labelling of [flat]: each operand with the operator in front of it *)
Definition relabel (o : bop) (l : list (option bop * nat)) : list (option bop * nat) :=
  match l with (_, n) :: t => (Some o, n) :: t | [] => [] end.

Fixpoint flat_chain (c : chain) : list (option bop * nat) :=
  match c with
  | [] => []
  | (o, e) :: r => relabel o (flat e) ++ flat_chain r
  end.

Definition all_ops : list bop :=
  [OPipe; OComma; OAs 0; OAssign; OUpdate; OUpdMath Add; OUpdMath Sub; OUpdMath Mul; OUpdMath Div; OUpdMath Rem; OUpdAlt;
   OAlt; OOr; OAnd; OCmp Eq_; OCmp Ne_; OCmp Lt_; OCmp Le_; OCmp Gt_; OCmp Ge_; OMath Add; OMath Sub; OMath Mul; OMath Div; OMath Rem].

(** docs: `|` < `,` < `as $x |` < `=` `|=` `+=` ... `//=` < `//` < `or` < `and` < `==` `!=` < `<` `<=` `>` `>=` < `+` `-` < `*` `/` < `%` *)
Definition doc_table : list (list bop) :=
  [[OPipe]; [OComma]; [OAs 0]; [OAssign; OUpdate; OUpdMath Add; OUpdMath Sub; OUpdMath Mul; OUpdMath Div; OUpdMath Rem; OUpdAlt];
   [OAlt]; [OOr]; [OAnd]; [OCmp Eq_; OCmp Ne_]; [OCmp Lt_; OCmp Le_; OCmp Gt_; OCmp Ge_]; [OMath Add; OMath Sub]; [OMath Mul; OMath Div]; [OMath Rem]].

Definition bop_eqb (a b : bop) : bool :=
  match a, b with
  | OPipe, OPipe | OComma, OComma | OAssign, OAssign | OUpdate, OUpdate | OUpdAlt, OUpdAlt | OAlt, OAlt | OOr, OOr | OAnd, OAnd => true
  | OAs x, OAs y => Nat.eqb x y
  | OUpdMath x, OUpdMath y | OMath x, OMath y =>
      match x, y with Add, Add | Sub, Sub | Mul, Mul | Div, Div | Rem, Rem => true | _, _ => false end
  | OCmp x, OCmp y =>
      match x, y with Lt_, Lt_ | Le_, Le_ | Gt_, Gt_ | Ge_, Ge_ | Eq_, Eq_ | Ne_, Ne_ => true | _, _ => false end
  | _, _ => false
  end.

Fixpoint level_in (o : bop) (t : list (list bop)) (i : nat) : nat :=
  match t with
  | [] => i
  | g :: r => if existsb (bop_eqb o) g then i else level_in o r (S i)
  end.

Definition doc_level (o : bop) : nat := level_in o doc_table 0.
(** `|` and the assignments group to the right, bindings extend as far right as possible, all others to the left *)
Definition doc_right (o : bop) : bool := (doc_level o =? 0) || (doc_level o =? 2) || (doc_level o =? 3).

Theorem prec_table : forallb (fun o => (prec o =? doc_level o) && Bool.eqb (right_assoc o) (doc_right o)) all_ops = true.
Proof. vm_compute. reflexivity. Qed.

(** the grouping the table implies for `a o1 b o2 c` *)
Definition groups_right (o1 o2 : bop) : bool :=
  match o1 with
  | OAs _ => true
  | _ => (doc_level o1 <? doc_level o2) || ((doc_level o1 =? doc_level o2) && doc_right o1)
  end.

Definition expected2 (o1 o2 : bop) : expr :=
  if groups_right o1 o2 then Bin (Atom 0) o1 (Bin (Atom 1) o2 (Atom 2))
  else Bin (Bin (Atom 0) o1 (Atom 1)) o2 (Atom 2).

Fixpoint expr_eqb (a b : expr) : bool :=
  match a, b with
  | Atom x, Atom y => Nat.eqb x y
  | Bin l o r, Bin l' o' r' => expr_eqb l l' && bop_eqb o o' && expr_eqb r r'
  | _, _ => false
  end.

Theorem all_pairs_group_as_tabulated :
  forallb (fun o1 => forallb (fun o2 => expr_eqb (parse_chain (Atom 0) [(o1, Atom 1); (o2, Atom 2)]) (expected2 o1 o2)) all_ops) all_ops = true.
Proof. vm_compute. reflexivity. Qed.

(** triples: fully parenthesise by the table (reference: insert operators one by one by precedence; a binding on the
    right spine takes everything that follows), compare.  Chains of any length are the subject of
    [PrecGeneral.climb_is_the_table_tree]; the sweep below is a statement about the parser alone, against a reference
    ([insert_right]) that is independent of [okt]. *)
Fixpoint spine_has_as (e : expr) : bool :=
  match e with
  | Bin _ (OAs _) _ => true
  | Bin _ _ r => spine_has_as r
  | Atom _ => false
  end.

Fixpoint insert_right (e : expr) (o : bop) (a : expr) : expr :=
  match e with
  | Bin l o0 r => if groups_right o0 o || spine_has_as r then Bin l o0 (insert_right r o a) else Bin e o a
  | Atom _ => Bin e o a
  end.

Definition reference3 (o1 o2 o3 : bop) : expr :=
  insert_right (insert_right (Bin (Atom 0) o1 (Atom 1)) o2 (Atom 2)) o3 (Atom 3).

Theorem all_triples_group_as_tabulated :
  forallb (fun o1 => forallb (fun o2 => forallb (fun o3 =>
    expr_eqb (parse_chain (Atom 0) [(o1, Atom 1); (o2, Atom 2); (o3, Atom 3)]) (reference3 o1 o2 o3)) all_ops) all_ops) all_ops = true.
Proof. vm_compute. reflexivity. Qed.
