(** The calendar algorithms invert each other and agree with the independent day count.
    Everything here is linear arithmetic with division by constants: each fact is split until [lia] decides it. *)
From Coq Require Import ZArith Bool List Lia.
From JaqV Require Import Std.Time.
Import ListNotations.
Local Open Scope Z_scope.

Fixpoint zrange (start : Z) (n : nat) : list Z :=
  match n with O => [] | S n => start :: zrange (start + 1) n end.

Lemma in_zrange n : forall start z, start <= z < start + Z.of_nat n -> In z (zrange start n).
Proof.
  induction n as [|n IH]; intros start z H; [lia|].
  cbn [zrange]. destruct (Z.eq_dec z start) as [->|Hne]; [left; reflexivity|].
  right. apply IH. lia.
Qed.

Definition zrange_z (start len : Z) : list Z := zrange start (Z.to_nat len).

Lemma in_zrange_z start len z : 0 <= len -> start <= z < start + len -> In z (zrange_z start len).
Proof. intros Hl H. apply in_zrange. rewrite Z2Nat.id by assumption. assumption. Qed.

(** The year of the era and the day of that year (counted from March 1st). A year of the era has 366 days when the
    calendar year that follows it is a leap year; only the last year reaches into the next calendar year 400. *)
Lemma year_of_era doe : 0 <= doe < 146097 ->
  let yoe := (doe - doe / 1460 + doe / 36524 - doe / 146096) / 365 in
  let doy := doe - (365 * yoe + yoe / 4 - yoe / 100) in
  0 <= yoe <= 399 /\ 0 <= doy <= 365 /\ (doy = 365 -> is_leap (yoe + 1) = true)
  /\ (doe <= 146036 -> doy < 306 \/ yoe < 399) /\ (306 <= doe -> 306 <= doy \/ 1 <= yoe).
Proof. intros H. cbv zeta. unfold is_leap. Z.div_mod_to_equations. lia. Qed.

(** Month and day of a day of the year, March first: January and February are the days from 306 on. *)
Lemma month_of_year doy y : 0 <= doy <= 365 -> (doy = 365 -> is_leap y = true) ->
  let mp := (5 * doy + 2) / 153 in
  let d := doy - (153 * mp + 2) / 5 + 1 in
  let m := if mp <? 10 then mp + 3 else mp - 9 in
  1 <= m <= 12 /\ (m <= 2 <-> 306 <= doy) /\ 1 <= d <= days_in_month y m
  /\ (153 * (if 2 <? m then m - 3 else m + 9) + 2) / 5 + d - 1 = doy.
Proof.
  intros H L. cbv zeta. set (mp := (5 * doy + 2) / 153).
  assert (M : 0 <= mp <= 11) by (unfold mp; Z.div_mod_to_equations; lia).
  assert (C : mp = 0 \/ mp = 1 \/ mp = 2 \/ mp = 3 \/ mp = 4 \/ mp = 5 \/ mp = 6 \/ mp = 7 \/ mp = 8 \/ mp = 9 \/ mp = 10 \/ mp = 11) by lia.
  unfold days_in_month.
  repeat (destruct C as [C|C]); rewrite C; cbn -[Z.div is_leap]; unfold mp in C.
  (* February is the twelfth case: its 29th is day 365 *)
  12: destruct (is_leap y); [|assert (doy <> 365) by (intros E; specialize (L E); discriminate)].
  all: Z.div_mod_to_equations; lia.
Qed.

Lemma civil_of_doe_spec doe : 0 <= doe < 146097 ->
  let '(yoe, m, d) := civil_of_doe doe in
  let y := if m <=? 2 then yoe + 1 else yoe in
  0 <= yoe <= 399 /\ 1 <= m <= 12 /\ 1 <= d <= days_in_month y m /\ doe_of_civil yoe m d = doe
  /\ (doe <= 146036 -> y <= 399) /\ (306 <= doe -> 1 <= y).
Proof.
  intros H. unfold civil_of_doe, doe_of_civil. cbv zeta.
  destruct (year_of_era doe H) as (Hy & Hdoy & Hleap & Hhi & Hlo). cbv zeta in Hdoy, Hleap, Hhi, Hlo.
  set (yoe := (doe - doe / 1460 + doe / 36524 - doe / 146096) / 365) in *.
  set (doy := doe - (365 * yoe + yoe / 4 - yoe / 100)) in *.
  set (mp := (5 * doy + 2) / 153). set (m := if mp <? 10 then mp + 3 else mp - 9).
  assert (L : doy = 365 -> is_leap (if m <=? 2 then yoe + 1 else yoe) = true).
  { intros E. unfold m, mp. rewrite E. exact (Hleap E). }
  pose proof (month_of_year doy _ Hdoy L) as (M & J & D & B). fold mp m in J, D, B |- *.
  rewrite B. destruct (Z.leb_spec m 2); repeat split; try tauto; unfold doy; lia.
Qed.

(** the date of day [z]: the date inside its era, with the year moved by 400 years per era *)
Lemma civil_from_days_spec z :
  let era := (z + 719468) / 146097 in let doe := (z + 719468) mod 146097 in
  exists yoe m d, let y := if m <=? 2 then yoe + 1 else yoe in
    civil_from_days z = (y + era * 400, m, d)
    /\ 0 <= yoe <= 399 /\ 1 <= m <= 12 /\ 1 <= d <= days_in_month y m /\ doe_of_civil yoe m d = doe
    /\ (doe <= 146036 -> y <= 399) /\ (306 <= doe -> 1 <= y).
Proof.
  cbv zeta. pose proof (civil_of_doe_spec _ (Z.mod_pos_bound (z + 719468) 146097 eq_refl)) as H.
  unfold civil_from_days. cbv zeta. rewrite <- (Z.mul_comm 146097), <- Z.mod_eq by lia.
  destruct (civil_of_doe _) as [[yoe m] d]. exists yoe, m, d. split; [destruct (m <=? 2); f_equal; f_equal; lia|exact H].
Qed.

Theorem days_civil_roundtrip z : let '(y, m, d) := civil_from_days z in days_from_civil y m d = z.
Proof.
  destruct (civil_from_days_spec z) as (yoe & m & d & -> & Hy & _ & _ & Hback & _).
  unfold days_from_civil. set (era := (z + 719468) / 146097).
  replace ((if m <=? 2 then _ - 1 else _)) with (yoe + era * 400) by (destruct (m <=? 2); lia).
  rewrite Z.div_add, (Z.div_small yoe) by lia.
  replace (yoe + era * 400 - (0 + era) * 400) with yoe by lia.
  rewrite Hback. unfold era. Z.div_mod_to_equations. lia.
Qed.

Lemma is_leap_period y k : is_leap (y + k * 400) = is_leap y.
Proof.
  unfold is_leap. replace (y + k * 400) with (y + (k * 100) * 4) at 1 by lia. rewrite Z_mod_plus_full.
  replace (y + k * 400) with (y + (k * 4) * 100) at 1 by lia. rewrite !Z_mod_plus_full. reflexivity.
Qed.

Lemma days_in_month_le y m : days_in_month y m <= 31.
Proof. unfold days_in_month. destruct (m =? 2), (is_leap y), ((m =? 4) || (m =? 6) || (m =? 9) || (m =? 11)); lia. Qed.

Theorem civil_valid z : let '(y, m, d) := civil_from_days z in valid_date y m d = true.
Proof.
  destruct (civil_from_days_spec z) as (yoe & m & d & -> & _ & Hm & Hd & _).
  unfold valid_date, days_in_month in *. rewrite is_leap_period. lia.
Qed.

Theorem civil_in_range z : let '(y, m, d) := civil_from_days z in 1 <= m <= 12 /\ 1 <= d <= 31.
Proof.
  pose proof (civil_valid z) as H. destruct (civil_from_days z) as [[y m] d].
  pose proof (days_in_month_le y m). unfold valid_date in H. lia.
Qed.

(** days before a month, counted from March 1st by the algorithm's formula, are the days counted by month lengths *)
Lemma month_start y m : 1 <= m <= 12 ->
  days_before_month y (Z.to_nat (m - 1)) =
  (153 * (if 2 <? m then m - 3 else m + 9) + 2) / 5 + (if 2 <? m then 59 + (if is_leap y then 1 else 0) else - 306).
Proof.
  intros M.
  assert (C : m = 1 \/ m = 2 \/ m = 3 \/ m = 4 \/ m = 5 \/ m = 6 \/ m = 7 \/ m = 8 \/ m = 9 \/ m = 10 \/ m = 11 \/ m = 12) by lia.
  repeat (destruct C as [C|C]); subst m; cbv -[is_leap]; destruct (is_leap y); reflexivity.
Qed.

Theorem days_from_civil_is_day_number y m d : 1 <= m <= 12 -> days_from_civil y m d = day_number y m d.
Proof.
  intros M. unfold days_from_civil, day_number, doe_of_civil, days_before_year. rewrite month_start by assumption.
  destruct (Z.leb_spec m 2), (Z.ltb_spec 2 m); try lia; destruct (is_leap y) eqn:L; unfold is_leap in L;
    Z.div_mod_to_equations; lia.
Qed.

Definition date_check (yoe : Z) : bool :=
  let y := 1970 + yoe in
  forallb (fun m => forallb (fun d => negb (valid_date y m d) || (days_from_civil y m d =? day_number y m d))
                            (zrange_z 1 31)) (zrange_z 1 12).

Lemma dates_all : forallb date_check (zrange_z 0 400) = true.
Proof.
  apply forallb_forall. intros yoe _. apply forallb_forall. intros m _. apply forallb_forall. intros d _.
  destruct (valid_date _ m d) eqn:V; [|reflexivity]. apply Z.eqb_eq, days_from_civil_is_day_number. unfold valid_date in V. lia.
Qed.

Lemma days_from_civil_period y m d : days_from_civil (y + 400) m d = days_from_civil y m d + 146097.
Proof.
  unfold days_from_civil.
  set (y' := if m <=? 2 then y - 1 else y).
  replace (if m <=? 2 then y + 400 - 1 else y + 400) with (y' + 1 * 400) by (unfold y'; destruct (m <=? 2); lia).
  rewrite Z.div_add by lia.
  replace (y' + 1 * 400 - (y' / 400 + 1) * 400) with (y' - y' / 400 * 400) by lia. lia.
Qed.
