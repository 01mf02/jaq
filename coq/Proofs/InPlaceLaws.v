(** `--in-place` is atomic: at every prefix of the operation sequence the target holds its old bytes or
    the complete new output. *)
From Coq Require Import ZArith List Lia.
From JaqV Require Import Base.Bytes Cli.InPlace.
Import ListNotations.

Lemma lookup_remove d n m : lookup (remove d n) m = if Nat.eqb m n then None else lookup d m.
Proof.
  induction d as [|[k f] r IH]; cbn.
  - destruct (Nat.eqb m n); reflexivity.
  - destruct (Nat.eqb n k) eqn:E1.
    + apply Nat.eqb_eq in E1. subst k. rewrite IH. destruct (Nat.eqb m n) eqn:E2; reflexivity.
    + cbn. destruct (Nat.eqb m k) eqn:E2.
      * apply Nat.eqb_eq in E2. subst k. destruct (Nat.eqb m n) eqn:E3; [|reflexivity].
        apply Nat.eqb_eq in E3. subst. rewrite Nat.eqb_refl in E1. discriminate.
      * apply IH.
Qed.

#[local] Arguments set : simpl never.
#[local] Arguments remove : simpl never.

Lemma lookup_remove_same d n : lookup (remove d n) n = None.
Proof. rewrite lookup_remove, Nat.eqb_refl. reflexivity. Qed.

Lemma lookup_remove_other d n m : m <> n -> lookup (remove d n) m = lookup d m.
Proof. intros H. rewrite lookup_remove, (proj2 (Nat.eqb_neq m n) H). reflexivity. Qed.

Lemma lookup_set_same d n f : lookup (set d n f) n = Some f.
Proof. unfold set. cbn [lookup]. rewrite Nat.eqb_refl. reflexivity. Qed.

Lemma lookup_set_other d n f m : m <> n -> lookup (set d n f) m = lookup d m.
Proof. intros H. unfold set. cbn [lookup]. rewrite (proj2 (Nat.eqb_neq m n) H). apply lookup_remove_other, H. Qed.

Lemma run_ops_app d a b : run_ops d (a ++ b) = run_ops (run_ops d a) b.
Proof. unfold run_ops. apply fold_left_app. Qed.

(** ** an operation touches only the files it names *)
Definition op_names (o : op) : list name :=
  match o with
  | CreateTmp t | Append t _ | Unlink t => [t]
  | Rename t p => [t; p]
  | Chmod p _ => [p]
  end.

Lemma step_frame d o q : ~ In q (op_names o) -> lookup (step d o) q = lookup d q.
Proof.
  intros H. destruct o as [t|t b|t p|p m|t]; cbn [op_names In] in H; cbn [step];
    try (destruct (lookup d _); [|reflexivity]);
    rewrite ?lookup_set_other, ?lookup_remove_other by (intros ->; tauto); reflexivity.
Qed.

Lemma run_ops_frame ops q : (forall o, In o ops -> ~ In q (op_names o)) ->
  forall k d, lookup (run_ops d (firstn k ops)) q = lookup d q.
Proof.
  unfold run_ops. induction ops as [|o ops IH]; intros H [|k] d; cbn [firstn fold_left]; try reflexivity.
  rewrite IH by (intros o' Ho'; apply H; right; exact Ho'). apply step_frame, H. left. reflexivity.
Qed.

(** ** one file
    Up to the commit point only the temporary file is written; then one rename (or, on failure, one unlink). *)
Definition pre_ops (j : job) : list op := CreateTmp (j_tmp j) :: map (Append (j_tmp j)) (j_chunks j).
Definition fin_ops (j : job) : list op :=
  if j_ok j then [Rename (j_tmp j) (j_path j); Chmod (j_path j) (j_mode j)] else [Unlink (j_tmp j)].

Lemma ops_of_split j : ops_of j = pre_ops j ++ fin_ops j.
Proof. reflexivity. Qed.

Lemma pre_names j o : In o (pre_ops j) -> op_names o = [j_tmp j].
Proof. intros [<-|H]; [reflexivity|]. apply in_map_iff in H as (b & <- & _). reflexivity. Qed.

Lemma ops_names j o q : In o (ops_of j) -> In q (op_names o) -> q = j_tmp j \/ q = j_path j.
Proof.
  rewrite ops_of_split. intros Ho Hq. apply in_app_or in Ho as [Ho|Ho].
  - rewrite (pre_names j o Ho) in Hq. destruct Hq as [<-|[]]. left. reflexivity.
  - unfold fin_ops in Ho. destruct (j_ok j); cbn [In] in Ho; intuition (subst o; cbn [op_names In] in Hq; intuition congruence).
Qed.

Lemma ops_frame_prefix (j : job) k q d : q <> j_tmp j -> q <> j_path j ->
  lookup (run_ops d (firstn k (ops_of j))) q = lookup d q.
Proof. intros Ht Hp. apply run_ops_frame. intros o Ho Hq. destruct (ops_names j o q Ho Hq); contradiction. Qed.

(** the documented exception touches nothing but the named file and its temporary file *)
Theorem in_place_frame (j : job) (d : dir) q : q <> j_path j -> q <> j_tmp j ->
  lookup (run_ops d (ops_of j)) q = lookup d q.
Proof. intros Hp Ht. rewrite <- (firstn_all (ops_of j)). apply ops_frame_prefix; assumption. Qed.

Definition new_data (j : job) : bytes := concat (j_chunks j).

Lemma appends_file t cs : forall d f0, lookup d t = Some f0 ->
  lookup (run_ops d (map (Append t) cs)) t = Some {| f_data := f_data f0 ++ concat cs; f_mode := f_mode f0 |}.
Proof.
  unfold run_ops. induction cs as [|c r IH]; intros d f0 H; cbn [map concat fold_left step].
  - rewrite app_nil_r. destruct f0. exact H.
  - rewrite H, (IH _ _ (lookup_set_same _ _ _)). cbn [f_data f_mode]. rewrite app_assoc. reflexivity.
Qed.

(** at the commit point the temporary file holds the whole output, and nothing else has changed *)
Lemma pre_ops_tmp j d : lookup (run_ops d (pre_ops j)) (j_tmp j) = Some {| f_data := new_data j; f_mode := 384%Z |}.
Proof. exact (appends_file _ _ _ _ (lookup_set_same d _ _)). Qed.

Lemma pre_ops_frame j k d q : q <> j_tmp j -> lookup (run_ops d (firstn k (pre_ops j))) q = lookup d q.
Proof.
  intros H. apply run_ops_frame. intros o Ho Hq. rewrite (pre_names j o Ho) in Hq. destruct Hq as [<-|[]]. exact (H eq_refl).
Qed.

(** at every moment (= after every prefix of the operations, e.g. when the process is killed) the
    target holds its old bytes, or - only after a successful run - exactly the complete output *)
Theorem atomic_one (j : job) (d : dir) old k :
  j_tmp j <> j_path j -> data_at d (j_path j) = Some old ->
  let d' := run_ops d (firstn k (ops_of j)) in
  data_at d' (j_path j) = Some old \/ (j_ok j = true /\ data_at d' (j_path j) = Some (new_data j)).
Proof.
  intros Hne Hold. cbn zeta. rewrite ops_of_split, firstn_app, run_ops_app.
  assert (Hp : data_at (run_ops d (firstn k (pre_ops j))) (j_path j) = Some old).
  { unfold data_at. rewrite pre_ops_frame by auto. exact Hold. }
  destruct (k - length (pre_ops j)) as [|k2] eqn:Ek; [left; exact Hp|].
  (* past the commit point *)
  rewrite firstn_all2 in * by lia. pose proof (pre_ops_tmp j d) as Ht.
  set (d1 := run_ops d (pre_ops j)) in *. unfold fin_ops, data_at, run_ops. destruct (j_ok j); cbn [firstn fold_left step].
  - right. split; [reflexivity|]. rewrite Ht. destruct k2; cbn [firstn fold_left step].
    + rewrite lookup_set_same. reflexivity.
    + rewrite firstn_nil, lookup_set_same. cbn [fold_left]. rewrite lookup_set_same. reflexivity.
  - left. rewrite firstn_nil. cbn [fold_left]. rewrite lookup_remove_other by auto. exact Hp.
Qed.

Lemma run_job (j : job) (d : dir) : j_tmp j <> j_path j ->
  let d' := run_ops d (ops_of j) in
  lookup d' (j_path j) = (if j_ok j then Some {| f_data := new_data j; f_mode := j_mode j |} else lookup d (j_path j))
  /\ lookup d' (j_tmp j) = None.
Proof.
  intros Hne. cbn zeta. rewrite ops_of_split, run_ops_app.
  assert (Hp : lookup (run_ops d (pre_ops j)) (j_path j) = lookup d (j_path j)).
  { rewrite <- (firstn_all (pre_ops j)). apply pre_ops_frame. auto. }
  pose proof (pre_ops_tmp j d) as Ht.
  set (d1 := run_ops d (pre_ops j)) in *. unfold fin_ops, run_ops. destruct (j_ok j); cbn [fold_left step].
  - rewrite Ht, lookup_set_same. split; [apply lookup_set_same|].
    rewrite !lookup_set_other by exact Hne. apply lookup_remove_same.
  - split; [rewrite lookup_remove_other by auto; exact Hp | apply lookup_remove_same].
Qed.

(** after a complete successful run the target holds exactly the output and its old permission bits, and the
    temporary file is gone *)
Theorem success_state (j : job) (d : dir) fold_ :
  j_tmp j <> j_path j -> j_ok j = true -> lookup d (j_path j) = Some fold_ -> j_mode j = f_mode fold_ ->
  let d' := run_ops d (ops_of j) in
  lookup d' (j_path j) = Some {| f_data := new_data j; f_mode := f_mode fold_ |} /\ lookup d' (j_tmp j) = None.
Proof. intros Hne Hok _ Hm. pose proof (run_job j d Hne) as H. rewrite Hok, Hm in H. exact H. Qed.

(** after a failed run nothing changed and no temporary file is left *)
Theorem failure_state (j : job) (d : dir) :
  j_tmp j <> j_path j -> j_ok j = false ->
  let d' := run_ops d (ops_of j) in
  lookup d' (j_path j) = lookup d (j_path j) /\ lookup d' (j_tmp j) = None.
Proof. intros Hne Hok. pose proof (run_job j d Hne) as H. rewrite Hok in H. exact H. Qed.
