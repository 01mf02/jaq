(** The loader, beyond "once": dependencies are loaded before their dependents, every file that the directives reach
    is loaded, a file that lies on a cycle of directives fails, the fuel of the model is never exhausted, and an acyclic set of existing
    files always loads. *)
From Coq Require Import List Arith Lia.
From JaqV Require Import Cli.Modules Proofs.ModuleLaws.
Import ListNotations.

Lemma deps_in_dom fs f ds : deps_of fs f = Some ds -> In f (map fst fs).
Proof.
  induction fs as [|[g gs] r IH]; cbn; [discriminate|].
  destruct (Nat.eqb f g) eqn:E; [apply Nat.eqb_eq in E; auto | auto].
Qed.

Lemma index_of_in f l : In f l -> forall i, index_of f l i <> None.
Proof. intros Hin i H. exact (index_of_none f l i H Hin). Qed.

Section Order.
  Variable fs : fsys.

  Definition ordered (l : list file) : Prop :=
    forall j m, nth_error l j = Some m -> m <> prelude_file ->
    forall ds d, deps_of fs m = Some ds -> In d ds -> exists i, i < j /\ nth_error l i = Some d.

  Lemma ordered_snoc l f : ordered l -> (forall ds d, deps_of fs f = Some ds -> In d ds -> In d l) -> ordered (l ++ [f]).
  Proof.
    intros Ho Hf j m Hj Hm ds d Hd Hin.
    destruct (Nat.lt_ge_cases j (length l)) as [Hlt|Hge].
    - rewrite nth_error_app1 in Hj by exact Hlt.
      destruct (Ho j m Hj Hm ds d Hd Hin) as [i [Hi Hn]]. exists i. split; [exact Hi|].
      rewrite nth_error_app1 by lia. exact Hn.
    - rewrite nth_error_app2 in Hj by exact Hge.
      destruct (j - length l) as [|k] eqn:Ek; [|destruct k; discriminate]. cbn in Hj. injection Hj as <-.
      destruct (In_nth_error _ _ (Hf ds d Hd Hin)) as [i Hi]. exists i.
      assert (i < length l) by (apply nth_error_Some; congruence).
      split; [lia|]. rewrite nth_error_app1 by assumption. exact Hi.
  Qed.

  Lemma runs_good o m ds m' : runs fs o m ds m' ->
    incl m m' /\ (forall d, In d ds -> In d m') /\ (ordered m -> ordered m').
  Proof.
    induction 1 as [o m|o m d r m' Hd _ (Hi & Hin & Ho)|o m d ds m1 r m' Hd _ _ _ (Hi1 & Hin1 & Ho1) _ (Hi2 & Hin2 & Ho2)].
    - split; [apply incl_refl|]. split; [intros d []|auto].
    - split; [exact Hi|]. split; [intros x [<-|Hx]; [apply Hi, Hd | apply Hin, Hx] | exact Ho].
    - assert (Hd2 : In d m') by (apply Hi2, in_or_app; right; left; reflexivity).
      split; [intros x Hx; apply Hi2, in_or_app; left; apply Hi1, Hx|].
      split; [intros x [<-|Hx]; [exact Hd2 | apply Hin2, Hx]|].
      intros Hm. apply Ho2, ordered_snoc; [apply Ho1, Hm|].
      intros ds' x Hd' Hx. rewrite Hd in Hd'. injection Hd' as <-. apply Hin1, Hx.
  Qed.

  Lemma load_good main_deps mods : load fs main_deps = inl mods ->
    ordered mods /\ (forall d, In d main_deps -> In d mods).
  Proof.
    intros H. destruct (runs_good _ _ _ _ (load_runs _ _ _ H)) as (_ & Hin & Ho). split; [apply Ho | exact Hin].
    intros j m Hj Hm. destruct j as [|[|j]]; cbn in Hj; [injection Hj as <-; contradiction | discriminate | discriminate].
  Qed.
End Order.

Theorem deps_loaded_first fs main_deps mods : load fs main_deps = inl mods ->
  forall j m, nth_error mods j = Some m -> m <> prelude_file ->
  forall ds d, deps_of fs m = Some ds -> In d ds -> exists i, i < j /\ nth_error mods i = Some d.
Proof. intros H. exact (proj1 (load_good fs main_deps mods H)). Qed.

Theorem reachable_loaded fs main_deps mods : load fs main_deps = inl mods ->
  (forall ds, deps_of fs prelude_file = Some ds -> ds = []) ->
  forall m, reach fs main_deps m -> In m mods.
Proof.
  intros H Hp m Hr. destruct (load_good fs main_deps mods H) as [Ho Hmain].
  induction Hr as [d Hd | f ds d Hf IH Hds Hin]; [apply Hmain, Hd|].
  destruct (Nat.eq_dec f prelude_file) as [->|Hne].
  - rewrite (Hp _ Hds) in Hin. destruct Hin.
  - destruct (In_nth_error _ _ IH) as [j Hj]. destruct (Ho j f Hj Hne ds d Hds Hin) as [i [_ Hi]].
    eapply nth_error_In. exact Hi.
Qed.

(** while a file is open, loading a list of files that contains it does not succeed *)
Lemma open_not_asked fs o m ds m' f : runs fs o m ds m' -> loaded_once o m -> In f ds -> ~ In f o.
Proof. intros H Hi Hf Ho. apply (proj2 (runs_loaded_once _ _ _ _ _ H Hi) f Ho). apply (runs_good _ _ _ _ _ H), Hf. Qed.

Theorem self_import_is_circular fs f ds fuel : deps_of fs f = Some ds -> In f ds -> f <> prelude_file ->
  match find (S fuel) fs {| l_mods := [prelude_file]; l_open := [] |} f with
  | inl _ => False
  | inr _ => True
  end.
Proof.
  intros Hd Hin Hne. cbn [find l_mods l_open index_of existsb]. rewrite Hd.
  destruct (Nat.eqb f prelude_file) eqn:E0; [apply Nat.eqb_eq in E0; contradiction|].
  destruct (load_all (find fuel fs) _ ds) as [st2|e] eqn:El; [|exact I].
  apply (open_not_asked _ _ _ _ _ f (proj2 (load_all_runs _ _ _ _ _ El))); [|exact Hin | left; reflexivity].
  split; [constructor; [intros [] | constructor]|]. intros h [<-|[]] [Hp|[]]. exact (Hne (eq_sym Hp)).
Qed.

Definition names (fs : fsys) (f d : file) : Prop := exists ds, deps_of fs f = Some ds /\ In d ds.

Inductive chain (fs : fsys) : file -> file -> Prop :=
| chain_one f d : names fs f d -> chain fs f d
| chain_step f m d : names fs f m -> chain fs m d -> chain fs f d.

Theorem cyclic_fails fs main_deps f :
  (forall ds, deps_of fs prelude_file = Some ds -> ds = []) ->
  reach fs main_deps f -> chain fs f f -> forall mods, load fs main_deps <> inl mods.
Proof.
  intros Hp Hr Hc mods H.
  (* along a chain the positions in [mods] decrease strictly, and no position of [mods] repeats *)
  assert (Hone : forall a b, names fs a b -> forall j, nth_error mods j = Some a -> exists i, i < j /\ nth_error mods i = Some b).
  { intros a b [ds [Hd Hin]] j Hj. apply (deps_loaded_first _ _ _ H j a Hj) with (ds := ds); [|exact Hd|exact Hin].
    intros ->. rewrite (Hp _ Hd) in Hin. destruct Hin. }
  assert (Hlt : forall a b, chain fs a b -> forall j, nth_error mods j = Some a -> exists i, i < j /\ nth_error mods i = Some b).
  { intros a b Hab. induction Hab as [a b Hn | a m b Hn _ IH]; intros j Hj; [exact (Hone a b Hn j Hj)|].
    destruct (Hone a m Hn j Hj) as [i1 [Hi1 Hn1]]. destruct (IH i1 Hn1) as [i [Hi Hni]]. exists i. split; [lia | exact Hni]. }
  destruct (In_nth_error _ _ (reachable_loaded _ _ _ H Hp f Hr)) as [j Hj].
  destruct (Hlt f f Hc j Hj) as [i [Hi Hni]].
  assert (i = j); [|lia].
  apply (proj1 (NoDup_nth_error mods) (load_once _ _ _ H)); [apply nth_error_Some; congruence | congruence].
Qed.

(** Which errors a run can end with, from a condition [pre fuel open file] on the calls of [find] that its recursive
    calls inherit: an error is [ok] if it is so at the call that raises it. *)
Section Failures.
  Variable fs : fsys.
  Variable pre : nat -> list file -> file -> Prop.
  Variable ok : lerr -> Prop.
  Hypothesis at_fuel : forall o f, pre 0 o f -> ok Fuel.
  Hypothesis at_missing : forall n o f, pre (S n) o f -> deps_of fs f = None -> ok (NotFound f).
  Hypothesis at_open : forall n o f, pre (S n) o f -> In f o -> ok (Circular f).
  Hypothesis at_dep : forall n o f ds d, pre (S n) o f -> deps_of fs f = Some ds -> ~ In f o -> In d ds -> pre n (f :: o) d.

  Lemma load_all_inr n : forall ds st e, load_all (find n fs) st ds = inr e ->
    exists st1 d, In d ds /\ l_open st1 = l_open st /\ find n fs st1 d = inr e.
  Proof.
    induction ds as [|d r IH]; intros st e H; cbn [load_all] in H; [discriminate|].
    destruct (find n fs st d) as [[i st1]|e1] eqn:Ef.
    - destruct (IH _ _ H) as (st2 & x & Hin & Ho & Hx). exists st2, x.
      split; [right; exact Hin|]. split; [rewrite Ho; exact (find_open _ _ _ _ _ _ Ef) | exact Hx].
    - injection H as <-. exists st, d. split; [left; reflexivity|]. split; [reflexivity | exact Ef].
  Qed.

  Lemma find_fails : forall n st f e, pre n (l_open st) f -> find n fs st f = inr e -> ok e.
  Proof.
    induction n as [|n IH]; intros st f e Hf H; cbn [find] in H.
    - injection H as <-. exact (at_fuel _ _ Hf).
    - destruct (deps_of fs f) as [ds|] eqn:Ed; [|injection H as <-; exact (at_missing _ _ _ Hf Ed)].
      destruct (index_of f (l_mods st) 0); [discriminate|].
      destruct (existsb (Nat.eqb f) (l_open st)) eqn:Ex.
      { injection H as <-. apply (at_open _ _ _ Hf), existsb_eqb, Ex. }
      destruct (load_all (find n fs) _ ds) as [st2|e2] eqn:El; [discriminate|]. injection H as <-.
      destruct (load_all_inr _ _ _ _ El) as (st1 & d & Hin & Ho & Hd). apply (IH st1 d); [|exact Hd].
      rewrite Ho. apply (at_dep _ _ _ _ _ Hf Ed); [rewrite <- existsb_eqb, Ex; discriminate | exact Hin].
  Qed.

  Lemma load_fails main_deps e : (forall d, In d main_deps -> pre (S (length fs)) [] d) -> load fs main_deps = inr e -> ok e.
  Proof.
    unfold load. intros Hpre H. destruct (load_all _ _ main_deps) as [st|e'] eqn:E; [discriminate|]. injection H as ->.
    destruct (load_all_inr _ _ _ _ E) as (st1 & d & Hin & Ho & Hd). apply (find_fails (S (length fs)) st1 d); [|exact Hd].
    rewrite Ho. exact (Hpre d Hin).
  Qed.
End Failures.

(** the open files are distinct files of [fs], and with every unit of fuel spent one more is open *)
Theorem load_fuel_suffices fs main_deps : load fs main_deps <> inr Fuel.
Proof.
  intros H.
  refine (load_fails fs (fun n o _ => NoDup o /\ incl o (map fst fs) /\ length fs < length o + n) (fun e => e <> Fuel)
            _ _ _ _ main_deps Fuel _ H eq_refl).
  - intros o f (Hn & Hi & Hl). pose proof (NoDup_incl_length Hn Hi) as Hle. rewrite map_length in Hle. lia.
  - discriminate.
  - discriminate.
  - intros n o f ds d (Hn & Hi & Hl) Hd Ho Hin. split; [constructor; assumption|].
    split; [intros x [<-|Hx]; [exact (deps_in_dom _ _ _ Hd) | apply Hi, Hx] | cbn [length]; lia].
  - intros d _. split; [constructor|]. split; [intros x [] | cbn [length]; lia].
Qed.

Theorem acyclic_loads fs main_deps (rank : file -> nat) :
  (forall f ds d, deps_of fs f = Some ds -> In d ds -> rank d < rank f) ->
  (forall f, reach fs main_deps f -> deps_of fs f <> None) ->
  exists mods, load fs main_deps = inl mods.
Proof.
  intros Hdec Hpres. destruct (load fs main_deps) as [mods|e] eqn:E; [exists mods; reflexivity|].
  exfalso. apply (load_fuel_suffices fs main_deps). rewrite E. f_equal.
  (* every file asked for is reached, and its rank is below that of every open file *)
  refine (load_fails fs (fun _ o f => reach fs main_deps f /\ forall h, In h o -> rank f < rank h) (fun e => e = Fuel)
            _ _ _ _ main_deps e _ E).
  - reflexivity.
  - intros n o f [Hr _] Hd. destruct (Hpres f Hr Hd).
  - intros n o f [_ Hlt] Hin. specialize (Hlt f Hin). lia.
  - intros n o f ds d [Hr Hlt] Hd _ Hin. split; [exact (reach_dep _ _ _ _ _ Hr Hd Hin)|].
    pose proof (Hdec f ds d Hd Hin). intros h [<-|Hh]; [assumption | specialize (Hlt h Hh); lia].
  - intros d Hd. split; [apply reach_main, Hd | intros h []].
Qed.

Example cycle_of_three_fails : forall mods, load [(0, []); (1, [2]); (2, [3]); (3, [1])] [1] <> inl mods.
Proof.
  apply (cyclic_fails _ _ 1); [intros ds H; cbn in H; injection H as <-; reflexivity | apply reach_main; left; reflexivity|].
  apply chain_step with 2; [exists [2]; split; [reflexivity | left; reflexivity]|].
  apply chain_step with 3; [exists [3]; split; [reflexivity | left; reflexivity]|].
  apply chain_one. exists [1]. split; [reflexivity | left; reflexivity].
Qed.

(** a diamond: the shared file is loaded once and before its users *)
Example diamond_loads : load [(0, []); (1, [2; 3]); (2, [4]); (3, [4]); (4, [])] [1] = inl [0; 4; 2; 3; 1].
Proof. vm_compute. reflexivity. Qed.
