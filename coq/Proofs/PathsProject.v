(** The values at the paths are the outputs: for every term of the path fragment, evaluating it for paths ([paths]) yields, in
    order, exactly the values that evaluating it for values ([run]) yields, each with its position - until the path
    evaluator refuses a value-constructing subterm with the path-expression error.  Excluded: `//` (whose paths follow the
    manual's `if first(f // false)` rule and include falsy outputs) and `try` (which can catch the refusal). *)
From Coq Require Import ZArith List.
From JaqV Require Import Base.Bytes Base.Stream Val.Val Val.Err Val.Arith Val.Index Core.Syntax Core.Natives Core.Run Proofs.MonadLaws Proofs.StreamLaws Proofs.PathLaws.
From JaqV Require Proofs.GetpathLaws Proofs.CompileCommon.
Import ListNotations.

Definition patherr (e : exn) : Prop := exists v, e = XErr (EPathExpr v).

(** [sproj s r]: the stream of (value, path) pairs [s] carries the values of [r], item by item and with the same end - or it
    stops with the path-expression error *)
Inductive sproj : str (val * vpath) -> str val -> Prop :=
| sp_nil : sproj SNil SNil
| sp_cons x p k k' : sproj (k tt) (k' tt) -> sproj (SCons (x, p) k) (SCons x k')
| sp_exn e : sproj (SExn e) (SExn e)
| sp_bot : sproj SBot SBot
| sp_unk : sproj SUnk SUnk
| sp_refuse e r : patherr e -> sproj (SExn e) r.

Lemma sproj_refuse v r : sproj (serr (EPathExpr v)) r.
Proof. apply sp_refuse. exists v. reflexivity. Qed.

Lemma sproj_of_smap s : forall r, smap fst s = r -> sproj s r.
Proof.
  induction s as [|[x p] k IH|e| |]; intros r <-; cbn [smap]; try constructor. cbn [fst]. apply IH. reflexivity.
Qed.

Lemma sproj_sone x p : sproj (sone (x, p)) (sone x).
Proof. constructor. constructor. Qed.

Lemma sproj_sapp s r : sproj s r -> forall s' r', sproj (s' tt) (r' tt) -> sproj (sapp s s') (sapp r r').
Proof.
  induction 1 as [|x p k k' H IH|e| | |e r Hp]; intros s' r' H'; cbn [sapp]; try (constructor; auto; fail). exact H'.
Qed.

Lemma sproj_sbind s r : sproj s r -> forall f g, (forall x p, sproj (f (x, p)) (g x)) -> sproj (sbind s f) (sbind r g).
Proof.
  induction 1 as [|x p k k' H IH|e| | |e r Hp]; intros f g Hfg; cbn [sbind]; try (constructor; assumption).
  apply sproj_sapp; [apply Hfg|apply IH, Hfg].
Qed.

(** the same stream of values on both sides, continued for paths and for values *)
Lemma sproj_sbind_on {A} (P : A -> Prop) s f g :
  GetpathLaws.sforall P s -> (forall x, P x -> sproj (f x) (g x)) -> sproj (sbind s f) (sbind s g).
Proof.
  intros Hs H. induction s as [|x k IH|e| |]; cbn [sbind]; try constructor. destruct Hs as [Hx Hk].
  apply sproj_sapp; [apply H, Hx|apply IH, Hk].
Qed.

Lemma sproj_sbind_same {A} (s : str A) f g : (forall x, sproj (f x) (g x)) -> sproj (sbind s f) (sbind s g).
Proof. intros H. apply (sproj_sbind_on (fun _ => True)); [apply GetpathLaws.sforall_true|auto]. Qed.

Lemma sproj_slabel l s r : sproj s r -> sproj (slabel l s) (slabel l r).
Proof.
  induction 1 as [|x p k k' H IH|e| | |e r [v ->]]; cbn [slabel]; try (constructor; assumption).
  - destruct e as [e|l'|c]; try constructor. destruct (Nat.eqb l l'); constructor.
  - apply sproj_refuse.
Qed.

Lemma sproj_first s r : sproj s r -> sproj (first_s s) (first_s r).
Proof. destruct 1 as [|x p k k' H|e| | |e r Hp]; cbn [first_s]; try (constructor; assumption). apply sproj_sone. Qed.

Lemma sproj_last s r : sproj s r -> forall cs cr, match cs, cr with Some (x, _), Some y => x = y | None, None => True | _, _ => False end ->
  sproj (last_go cs s) (last_go cr r).
Proof.
  induction 1 as [|x p k k' H IH|e| | |e r Hp]; intros cs cr Hc; cbn [last_go]; try (constructor; assumption).
  - destruct cs as [[x q]|], cr as [y|]; try contradiction; [subst; apply sproj_sone|constructor].
  - apply IH. reflexivity.
Qed.

Lemma sproj_limit_go s r : sproj s r -> forall n, sproj (limit_go n s) (limit_go n r).
Proof.
  induction 1 as [|x p k k' H IH|e| | |e r Hp]; intros n; rewrite !limit_go_eq.
  all: destruct (negb _); [constructor|]; destruct (vsub n (vint 1)); [|constructor].
  all: constructor; auto.
Qed.

Lemma sproj_skip_go s r : sproj s r -> forall n, sproj (skip_go n s) (skip_go n r).
Proof.
  induction 1 as [|x p k k' H IH|e| | |e r Hp]; intros n; rewrite !skip_go_eq.
  all: destruct (negb _); [|destruct (vsub n (vint 1)); [|constructor]].
  all: try (constructor; assumption). apply IH.
Qed.

Lemma sproj_limit s r n : sproj (s tt) (r tt) -> sproj (limit n s) (limit n r).
Proof. intros H. unfold limit. destruct (val_leb n (vint 0)); [constructor|]. apply sproj_limit_go. exact H. Qed.
Lemma sproj_skip s r n : sproj s r -> sproj (skip n s) (skip n r).
Proof. intros H. unfold skip. destruct (val_leb n (vint 0)); [exact H|]. apply sproj_skip_go. exact H. Qed.

(** when the path evaluator does not refuse, the values are exactly the outputs *)
Fixpoint accepted {A} (s : str A) : Prop :=
  match s with
  | SCons _ k => accepted (k tt)
  | SExn e => ~ patherr e
  | _ => True
  end.
Lemma sproj_exact s r : sproj s r -> accepted s -> smap fst s = r.
Proof.
  induction 1 as [|x p k k' H IH|e| | |e r Hp]; cbn [accepted smap]; intros A; try reflexivity.
  - apply SCons_ext, IH, A.
  - contradiction.
Qed.

(** ** the path fragment *)
Fixpoint ok_term (k : term) : Prop :=
  match k with
  | KAlt _ _ | KTryCatch _ _ => False
  | KPipe l None r => ok_term l /\ ok_term r
  | KPipe _ (Some PatVar) r => ok_term r
  | KPipe _ (Some (PatIdx _)) _ => False
  | KComma l r => ok_term l /\ ok_term r
  | KIte _ th el => ok_term th /\ ok_term el
  | KPath f _ => ok_term f
  | KFold _ PatVar init upd ft => ok_term init /\ ok_term upd /\ match ft with Foreach (Some p) => ok_term p | _ => True end
  | KFold _ (PatIdx _) _ _ _ => False
  | KCallDef _ args _ _ | KNative _ args =>
      (fix go (l : list (bool * term)) : Prop := match l with [] => True | (_, a) :: r => ok_term a /\ go r end) args
  | KLabel f => ok_term f
  | _ => True
  end.

Definition ok_args (args : list (bool * term)) : Prop := Forall (fun ba => ok_term (snd ba)) args.
Lemma ok_args_go args :
  (fix go (l : list (bool * term)) : Prop := match l with [] => True | (_, a) :: r => ok_term a /\ go r end) args -> ok_args args.
Proof. induction args as [|[b a] r IH]; intros H; constructor; [exact (proj1 H)|apply IH; exact (proj2 H)]. Qed.

Fixpoint ok_bind (b : bind) : Prop :=
  match b with
  | BFun t vs => ok_term t /\ (fix go (l : list bind) : Prop := match l with [] => True | x :: r => ok_bind x /\ go r end) vs
  | _ => True
  end.
Definition ok_ctx (c : ctx) : Prop := Forall ok_bind (vars c).
Lemma ok_bind_fun t vs : ok_bind (BFun t vs) -> ok_term t /\ Forall ok_bind vs.
Proof. cbn [ok_bind]. intros [H1 H2]. split; [exact H1|]. induction vs as [|x r IH]; constructor; [exact (proj1 H2)|apply IH; exact (proj2 H2)]. Qed.
Lemma ok_bind_fun_intro t vs : ok_term t -> Forall ok_bind vs -> ok_bind (BFun t vs).
Proof. intros H1 H2. cbn [ok_bind]. split; [exact H1|]. induction H2 as [|x r Hx _ IH]; [exact I|split; assumption]. Qed.

Lemma recurse_project n : forall v p, sproj (recurse_paths n (v, p)) (recurse_vals n v).
Proof.
  induction n as [|n IH]; intros v p; [constructor|]. cbn [recurse_paths recurse_vals fst snd]. constructor.
  pose proof (key_values_values v) as H. destruct (vkey_values v) as [kvs|e1], (vvalues v) as [vs|e2]; try contradiction; [|constructor].
  subst vs. induction kvs as [|[k x] kvs IHk]; cbn [map of_list sbind]; [constructor|].
  apply sproj_sapp; [apply IH|exact IHk].
Qed.

Section PROJECT.
  Variable d : val -> bytes.
  Variable nr : nat -> bytes -> list narg -> val -> option (str val).
  Variable defs : list term.
  Hypothesis Hdefs : Forall ok_term defs.
  Notation run := (run d nr defs).
  Notation paths := (paths d nr defs).
  Notation bind_vars := (bind_vars d nr defs).
  Notation bind_nargs := (bind_nargs d nr defs).
  Notation explode := (explode d nr defs).
  Notation run_and_bind := (run_and_bind d nr defs).

  (** the loop of reduce/foreach over paths, named (the one over values is CompileCommon.fold_ctx) *)
  Definition gop (n : nat) (upd : term) (ft : foldtype) :=
    fix go (xs : str ctx) (acc : val * vpath) : str (val * vpath) :=
      match xs with
      | SNil => match ft with Reduce => sone acc | Foreach _ => SNil end
      | SCons cx k =>
          sbind (paths n upd cx acc) (fun y =>
            sapp (match ft with
                  | Reduce => SNil
                  | Foreach None => sone y
                  | Foreach (Some p) => paths n p cx y
                  end) (fun _ => go (k tt) y))
      | SExn e => SExn e
      | SBot => SBot
      | SUnk => SUnk
      end.
  Notation gor := (CompileCommon.fold_ctx d nr defs).

  Notation sforall := GetpathLaws.sforall.

  Definition narg_ok (a : narg) : Prop :=
    match a with NV _ => True | NF cl => forall x p, sproj (cl_paths cl (x, p)) (cl_run cl x) end.

  (** the natives with a path mode - first, last, limit, skip over a filter argument - project; every other native refuses *)
  Lemma native_project n name args x p : Forall narg_ok args ->
    sproj (native_paths name args (x, p)) (native nr n name args x).
  Proof.
    intros Ha. unfold native_paths, core_paths.
    destruct (bytes_eqb_spec name n_first) as [->|N1].
    { destruct args as [|[v|cl] [|? ?]]; try apply sproj_refuse. inversion Ha as [|? ? H _]; subst.
      unfold native. change (core_run n n_first [NF cl] x) with (Some (first_s (cl_run cl x))). apply sproj_first. apply H. }
    destruct (bytes_eqb_spec name n_last) as [->|N2].
    { destruct args as [|[v|cl] [|? ?]]; try apply sproj_refuse. inversion Ha as [|? ? H _]; subst.
      unfold native. change (core_run n n_last [NF cl] x) with (Some (last_s (cl_run cl x))). unfold last_s. apply sproj_last; [apply H|exact I]. }
    destruct (bytes_eqb_spec name n_limit) as [->|N3].
    { destruct args as [|[k|cl] [|[v|cl'] [|? ?]]]; try apply sproj_refuse. inversion Ha as [|? ? _ Ha']; subst. inversion Ha' as [|? ? H _]; subst.
      unfold native. change (core_run n n_limit [NV k; NF cl'] x) with (Some (limit k (fun _ => cl_run cl' x))). apply sproj_limit. apply H. }
    destruct (bytes_eqb_spec name n_skip) as [->|N4].
    { destruct args as [|[k|cl] [|[v|cl'] [|? ?]]]; try apply sproj_refuse. inversion Ha as [|? ? _ Ha']; subst. inversion Ha' as [|? ? H _]; subst.
      unfold native. change (core_run n n_skip [NV k; NF cl'] x) with (Some (skip k (cl_run cl' x))). apply sproj_skip. apply H. }
    apply sproj_refuse.
  Qed.

  Lemma ok_cons_var y c : ok_ctx c -> ok_ctx (cons_var y c).
  Proof. intros H. constructor; [exact I|exact H]. Qed.
  Lemma ok_cons_label c : ok_ctx c -> ok_ctx (cons_label c).
  Proof. intros H. constructor; [exact I|exact H]. Qed.
  Lemma ok_cons_fun a c acc : ok_term a -> ok_ctx c -> ok_ctx acc -> ok_ctx (cons_fun a c acc).
  Proof. intros Ha Hc Hacc. constructor; [apply ok_bind_fun_intro; assumption|exact Hacc]. Qed.
  Lemma ok_skip k c : ok_ctx c -> ok_ctx (skip_vars k c).
  Proof.
    unfold ok_ctx, skip_vars. cbn [vars]. intros H. rewrite <- (firstn_skipn k (vars c)) in H. apply Forall_app in H. exact (proj2 H).
  Qed.

  Section STEP.
    Variable n : nat.
    Hypothesis T : forall k c x p, ok_term k -> ok_ctx c -> sproj (paths n k c (x, p)) (run n k c x).

    Lemma go_project upd ft : ok_term upd -> match ft with Foreach (Some pr) => ok_term pr | _ => True end ->
      forall xs, sforall ok_ctx xs -> forall a p, sproj (gop n upd ft xs (a, p)) (gor n upd ft xs a).
    Proof.
      intros Hu Hp xs. induction xs as [|cx k IH|e| |]; intros Hx a p; cbn [gop CompileCommon.fold_ctx]; try constructor.
      - destruct ft; [apply sproj_sone|constructor].
      - destruct Hx as [Hcx Hk]. apply sproj_sbind; [apply T; assumption|]. intros y q.
        apply sproj_sapp; [|apply IH; exact Hk]. destruct ft as [|[pr|]]; [constructor|apply T; assumption|apply sproj_sone].
    Qed.
  End STEP.

  Theorem project_all n :
    (forall k c x p, ok_term k -> ok_ctx c -> sproj (paths n k c (x, p)) (run n k c x))
    /\ (forall args acc c v, ok_args args -> ok_ctx acc -> ok_ctx c -> sforall ok_ctx (bind_vars n args acc c v))
    /\ (forall args acc c v, ok_args args -> ok_ctx c -> Forall narg_ok acc -> sforall (Forall narg_ok) (bind_nargs n args acc c v)).
  Proof.
    induction n as [|n (T & B & N)]; [repeat split; intros; cbn; auto; constructor|]. split; [|split].
    - (* [simpl] computes one round of both evaluators; unlike [cbn] it folds the calls between the mutually recursive
         functions back into their names *)
      intros k c x p Hk Hc. destruct k; try (exact (sproj_refuse _ _)); try contradiction; simpl.
      + (* . *) apply sproj_sone.
      + (* .. *) apply recurse_project.
      + (* variable or closure *) destruct (nth_bind c i) as [[y|l|f fvars]|] eqn:E.
        * apply sproj_refuse.
        * apply sp_exn.
        * unfold nth_bind in E. apply nth_error_In in E. unfold ok_ctx in Hc. rewrite Forall_forall in Hc. destruct (ok_bind_fun _ _ (Hc _ E)) as [Hf Hv].
          apply T; [exact Hf|exact Hv].
        * apply sp_unk.
      + (* call *) destruct (nth_error defs d0) as [body|] eqn:E; [|constructor].
        assert (Hb : ok_term body) by (rewrite Forall_forall in Hdefs; apply Hdefs; apply nth_error_In in E; exact E).
        cbn [ok_term] in Hk. apply ok_args_go in Hk.
        apply (sproj_sbind_on ok_ctx); [apply B; [exact Hk|apply ok_skip, Hc|exact Hc]|]. intros c' Hc'. apply T; assumption.
      + (* native *) cbn [ok_term] in Hk. apply ok_args_go in Hk.
        apply (sproj_sbind_on (Forall narg_ok)); [apply N; [exact Hk|exact Hc|constructor]|].
        intros na Hna. apply native_project, Forall_rev, Hna.
      + (* label *) apply sproj_slabel. apply T; [exact Hk|apply ok_cons_label; exact Hc].
      + (* pipe / binding *) destruct pat as [[|ps]|]; cbn [ok_term] in Hk; try contradiction.
        * apply sproj_sbind_same. intros y. apply T; [exact Hk|apply ok_cons_var; exact Hc].
        * destruct Hk as [H1 H2]. apply sproj_sbind; [apply T; assumption|]. intros y q. apply T; assumption.
      + (* comma *) destruct Hk as [H1 H2]. apply sproj_sapp; apply T; assumption.
      + (* if *) destruct Hk as [H1 H2]. apply sproj_sbind_same. intros y. apply T; [destruct (as_bool y); assumption|exact Hc].
      + (* reduce / foreach *) destruct pat as [|ps]; cbn [ok_term] in Hk; [|contradiction]. destruct Hk as (H1 & H2 & H3).
        apply sproj_sbind; [apply T; assumption|]. intros i q.
        apply go_project; [exact T|exact H2|exact H3|].
        destruct n as [|m]; [exact I|]. apply GetpathLaws.sforall_sbind_all. intros y. cbn. split; [apply ok_cons_var; exact Hc|exact I].
      + (* path *) cbn [ok_term] in Hk. apply sproj_sbind; [apply T; assumption|]. intros y q.
        apply sproj_sbind_same. intros ps. apply sproj_of_smap. apply path_paths_project.
    - (* the contexts of a call *)
      intros args acc c v Ha Hacc Hc. destruct args as [|[[|] a] rest]; simpl.
      + auto.
      + inversion Ha as [|? ? _ Hr]; subst. apply GetpathLaws.sforall_sbind_all. intros y.
        apply B; [exact Hr|apply ok_cons_var; exact Hacc|exact Hc].
      + inversion Ha as [|? ? Hx Hr]; subst. apply B; [exact Hr|apply ok_cons_fun; assumption|exact Hc].
    - (* the arguments of a native *)
      intros args acc c v Ha Hc Hacc. destruct args as [|[[|] a] rest]; simpl.
      + auto.
      + inversion Ha as [|? ? _ Hr]; subst. apply GetpathLaws.sforall_sbind_all. intros y.
        apply N; [exact Hr|exact Hc|constructor; [exact I|exact Hacc]].
      + inversion Ha as [|? ? Hx Hr]; subst. apply N; [exact Hr|exact Hc|].
        constructor; [|exact Hacc]. cbn [narg_ok cl_paths cl_run]. intros y q. apply T; assumption.
  Qed.

  (** path(f) lists, in order, the positions of exactly the values f outputs *)
  Theorem paths_carry_the_outputs n k c x p : ok_term k -> ok_ctx c -> sproj (paths n k c (x, p)) (run n k c x).
  Proof. apply (proj1 (project_all n)). Qed.

  Corollary paths_values_exact n k c x p : ok_term k -> ok_ctx c -> accepted (paths n k c (x, p)) ->
    smap fst (paths n k c (x, p)) = run n k c x.
  Proof. intros Hk Hc. apply sproj_exact. apply paths_carry_the_outputs; assumption. Qed.
End PROJECT.

(** the fragment contains the usual path expressions, e.g. the compiled form of  .[] | (if . then .a else .b end, first(.a, .b)) *)
Example ok_ex :
  let ka := KPath KId [(Index (KStr (of_ascii [97]%Z)), false)] in
  let kb := KPath KId [(Index (KStr (of_ascii [98]%Z)), true)] in
  ok_term (KPipe (KPath KId [(Range None None, false)]) None
             (KComma (KIte KId ka kb) (KNative n_first [(false, KComma ka kb)]))).
Proof. cbn. tauto. Qed.
