(** On bit patterns that are no NaN, [float_cmp] is the order of the integer keys [nkey]: the laws of the order are those of Z. *)
From Coq Require Import ZArith Bool Lia.
From JaqV Require Import Base.F64.
Local Open Scope Z_scope.

(** key with both zeros identified *)
Definition nkey (b : Z) : Z := if is_zero b then 0 else total_key b.

Definition nonan (b : Z) : Prop := valid_bits b = true /\ is_nan b = false.

Lemma two64_two63 : two64 = 2 * two63.
Proof. reflexivity. Qed.

Lemma valid_bits_range b : valid_bits b = true -> 0 <= b < two64.
Proof. unfold valid_bits. rewrite andb_true_iff, Z.leb_le, Z.ltb_lt. auto. Qed.

(** the keys of the two zeros are 0 and -1; every other pattern has a key outside [-1, 0] *)
Lemma total_key_zero b : 0 <= b < two64 ->
  if is_zero b then total_key b = 0 \/ total_key b = -1 else total_key b < -1 \/ 0 < total_key b.
Proof.
  intros Hb. rewrite two64_two63 in Hb. assert (0 < two63) by reflexivity. unfold is_zero, pos_zero, neg_zero, total_key.
  destruct (Z.eqb_spec b 0), (Z.eqb_spec b two63), (Z.ltb_spec b two63); cbn [orb]; lia.
Qed.

Lemma cmp_eq_of a b c d : (a < b <-> c < d) -> (a = b <-> c = d) -> Z.compare a b = Z.compare c d.
Proof. intros H1 H2. destruct (Z.compare_spec a b), (Z.compare_spec c d); try reflexivity; lia. Qed.

Lemma float_cmp_nkey l r : nonan l -> nonan r -> float_cmp l r = Z.compare (nkey l) (nkey r).
Proof.
  intros [Hl Nl] [Hr Nr]. apply valid_bits_range, total_key_zero in Hl, Hr.
  unfold float_cmp, nkey. rewrite Nl, Nr.
  destruct (is_zero l), (is_zero r); cbn [andb]; try reflexivity; apply cmp_eq_of; lia.
Qed.

Lemma float_cmp_refl b : nonan b -> float_cmp b b = Eq.
Proof. intros H. rewrite float_cmp_nkey by assumption. apply Z.compare_refl. Qed.

Lemma float_cmp_antisym l r : nonan l -> nonan r -> float_cmp r l = CompOpp (float_cmp l r).
Proof. intros Hl Hr. rewrite !float_cmp_nkey by assumption. apply Z.compare_antisym. Qed.

Lemma float_cmp_trans_le a b c : nonan a -> nonan b -> nonan c ->
  float_cmp a b <> Gt -> float_cmp b c <> Gt -> float_cmp a c <> Gt.
Proof. intros Ha Hb Hc. rewrite !float_cmp_nkey, !Z.compare_gt_iff by assumption. lia. Qed.

Lemma float_cmp_trans a b c o : nonan a -> nonan b -> nonan c ->
  float_cmp a b = o -> float_cmp b c = o -> float_cmp a c = o.
Proof.
  intros Ha Hb Hc. rewrite !float_cmp_nkey by assumption.
  destruct o; rewrite ?Z.compare_eq_iff, ?Z.compare_lt_iff, ?Z.compare_gt_iff; lia.
Qed.

Lemma float_eq_cmp l r : float_eq l r = true <-> float_cmp l r = Eq.
Proof. unfold float_eq. destruct (float_cmp l r); split; congruence. Qed.

Lemma float_trichotomy l r : nonan l -> nonan r ->
  (float_cmp l r = Lt /\ float_eq l r = false /\ float_cmp r l = Gt) \/
  (float_cmp l r = Eq /\ float_eq l r = true /\ float_cmp r l = Eq) \/
  (float_cmp l r = Gt /\ float_eq l r = false /\ float_cmp r l = Lt).
Proof.
  intros Hl Hr. rewrite (float_cmp_antisym l r Hl Hr). unfold float_eq.
  destruct (float_cmp l r); cbn; auto.
Qed.

