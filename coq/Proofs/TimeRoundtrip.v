(** gmtime | mktime = . for every whole number of seconds that gmtime accepts. *)
From Coq Require Import ZArith Bool List Lia.
From JaqV Require Import Std.Time Proofs.TimeLaws.
Import ListNotations.
Local Open Scope Z_scope.

(** the years of the representable range: the first and the last era are cut off inside the year 9999 before and after *)
Lemma year_bounds z : -4371587 <= z <= 2932896 -> let '(y, m, d) := civil_from_days z in -9999 <= y <= 9999.
Proof.
  intros Hz. destruct (civil_from_days_spec z) as (yoe & m & d & -> & Hy & _ & _ & _ & Hhi & Hlo).
  destruct (m <=? 2); Z.div_mod_to_equations; lia.
Qed.

Lemma epoch_in_range t us : epoch_us t = TOk us -> ts_min_us <= t * 1000000 <= ts_max_us.
Proof.
  unfold epoch_us. destruct (_ || _); [discriminate|].
  destruct (Z.ltb_spec (t * 1000000) ts_min_us), (Z.ltb_spec ts_max_us (t * 1000000)); try discriminate. lia.
Qed.

Lemma time_of_day secs : 0 <= secs < 86400 ->
  0 <= secs / 3600 <= 23 /\ 0 <= secs mod 3600 / 60 <= 59 /\ 0 <= secs mod 60 <= 59
  /\ secs / 3600 * 3600 + secs mod 3600 / 60 * 60 + secs mod 60 = secs.
Proof. intros H. Z.div_mod_to_equations. lia. Qed.

Theorem mktime_of_gmtime t y m0 d h mi s rest :
  gmtime_int t = TOk (y :: m0 :: d :: h :: mi :: s :: rest) -> mktime_int y m0 d h mi s = TOk t.
Proof.
  unfold gmtime_int. destruct (epoch_us t) as [us| |] eqn:Eu; try discriminate.
  apply epoch_in_range in Eu. unfold broken_down.
  set (days := t / 86400). set (secs := t mod 86400).
  destruct (time_of_day secs (Z.mod_pos_bound t 86400 eq_refl)) as (Hh & Hmi & Hs & Hsecs).
  assert (Hd : -4371587 <= days <= 2932896) by (unfold days, ts_min_us, ts_max_us in *; Z.div_mod_to_equations; lia).
  pose proof (year_bounds days Hd) as Hy. pose proof (civil_valid days) as Hv. pose proof (days_civil_roundtrip days) as Hr.
  pose proof (civil_in_range days) as Hmd.
  destruct (civil_from_days days) as [[yy mm] dd]. intros H. injection H as <- <- <- <- <- <- _.
  unfold mktime_int. replace (mm - 1 + 1) with mm by lia. rewrite Hv, Hr.
  replace (Z.max (-128) (Z.min 127 (secs mod 60))) with (secs mod 60) by lia.
  (* the three range tests pass; what is left is the sum of the fields *)
  replace (negb ((-32768 <=? yy) && (yy <=? 32767))) with false by lia.
  replace (negb ((-128 <=? mm - 1) && _ && _ && _ && _ && _ && _ && _)) with false by lia.
  replace (negb ((-9999 <=? yy) && _ && true && _ && _ && _ && _ && _ && _)) with false by lia.
  replace (days * 86400 + secs / 3600 * 3600 + secs mod 3600 / 60 * 60 + secs mod 60) with t
    by (rewrite <- Z.add_assoc, <- Z.add_assoc, (Z.add_assoc (_ * 3600)), Hsecs; unfold days, secs; Z.div_mod_to_equations; lia).
  replace ((t * 1000000 <? ts_min_us) || (ts_max_us <? t * 1000000)) with false by lia. reflexivity.
Qed.
