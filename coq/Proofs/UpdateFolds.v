(** C02: updates through definitions, filter arguments and folds.  The clauses of the update evaluator for these forms, as
    reduction rules in the style of the manual's table:
      f(args) |= u            =  body[args] |= u                      (a definition is updated through its body)
      g |= u  (g a filter argument)  =  the argument's term, in the context it was written in, |= u
      reduce  xs as $x (init; upd) |= u  =  init |= (upd[x1] |= (upd[x2] |= ... u))
      foreach xs as $x (init; upd) |= u  =  init |= (upd[x1] |= (u | (upd[x2] |= (u | ...))))
    i.e. an update through reduce is the update through its nested-pipe expansion `init | upd[x1] | ... | upd[xn]`. *)
From Coq Require Import List FunctionalExtensionality.
From JaqV Require Import Base.Bytes Base.Stream Val.Val Core.Syntax Core.Natives Core.Run Proofs.MonadLaws.
Import ListNotations.

Section UF.
  Variable d : val -> bytes.
  Variable nr : nat -> bytes -> list narg -> val -> option (str val).
  Variable defs : list term.
  Notation update := (update d nr defs).
  Notation fold_update := (fold_update d nr defs).

  Lemma update_call n id args skip ct c v f body : nth_error defs id = Some body ->
    update (S n) (KCallDef id args skip ct) c v f
    = sreduce (bind_vars d nr defs n args (skip_vars skip c) c v) v (fun c' x => update n body c' x f).
  Proof. intros H. cbn [Run.update]. rewrite H. reflexivity. Qed.

  Lemma update_filter_argument n i c v f g fvars : nth_bind c i = Some (BFun g fvars) ->
    update (S n) (KVar i) c v f = update n g (with_vars fvars c) v f.
  Proof. intros H. cbn [Run.update]. rewrite H. reflexivity. Qed.

  Lemma update_fold n xs pat init upd ft c v f :
    update (S n) (KFold xs pat init upd ft) c v f
    = update n init c v (fun x => fold_update n ft upd x (run_and_bind d nr defs n xs c v pat) f).
  Proof. reflexivity. Qed.

  (** over the bound contexts [cs] of the source, with the fuel the evaluator spends per item *)
  Fixpoint nested (n : nat) (ft : foldtype) (upd : term) (cs : list ctx) (f : val -> str val) (v : val) : str val :=
    match n with
    | O => SBot
    | S n =>
        match cs with
        | [] => match ft with Reduce => f v | Foreach _ => sone v end
        | cx :: r =>
            update n upd cx v
              (match ft with
               | Reduce => nested n ft upd r f
               | Foreach None => fun x => sbind (f x) (nested n ft upd r f)
               | Foreach (Some proj) => fun x => sbind (update n proj cx x f) (nested n ft upd r f)
               end)
        end
    end.

  Lemma fold_update_cons n ft path v cx (k : unit -> str ctx) f :
    fold_update (S n) ft path v (SCons cx k) f
    = update n path cx v
        (match ft with
         | Reduce => fun x => fold_update n ft path x (k tt) f
         | Foreach None => fun x => sbind (f x) (fun x => fold_update n ft path x (k tt) f)
         | Foreach (Some proj) => fun x => sbind (update n proj cx x f) (fun x => fold_update n ft path x (k tt) f)
         end).
  Proof. destruct ft as [|[proj|]]; reflexivity. Qed.

  Theorem fold_update_is_nested ft upd f : forall cs n v,
    fold_update n ft upd v (of_list cs) f = nested n ft upd cs f v.
  Proof.
    induction cs as [|cx r IH]; intros n v; destruct n as [|n]; try reflexivity.
    cbn [of_list]. rewrite fold_update_cons. cbn [nested]. f_equal.
    destruct ft as [|[proj|]]; apply functional_extensionality; intros x; try (apply sbind_ext; intros y); apply IH.
  Qed.

  (** an empty source: `reduce empty as $x (init; upd) |= u` = `init |= u`; `foreach empty ... |= u` leaves init's value alone *)
  Corollary update_fold_empty n upd f v :
    fold_update (S n) Reduce upd v SNil f = f v /\ fold_update (S n) (Foreach None) upd v SNil f = sone v.
  Proof. split; reflexivity. Qed.
End UF.
