(** C17: the main loop of Cli/Main.v writes every output completely and in order, never takes back what it has written, and
    ends in the same outcome whatever the output options are. *)
From Coq Require Import ZArith List.
From JaqV Require Import Base.Bytes Base.Stream Val.Val Core.Eval Cli.Main.
Import ListNotations.

Definition no_raw0 (o : opts) : Prop := o_to o <> OutRaw0.

Lemma render_some o v : no_raw0 o -> exists b, render o v = Some b.
Proof.
  intros H. unfold render. destruct (o_to o) eqn:E; [| |contradiction];
  destruct v; cbn; eauto.
Qed.

Definition render_or_empty (o : opts) (v : val) : bytes :=
  match render o v with Some b => b | None => [] end.

Definition last_of (items : list val) (last : option bool) : option bool :=
  match rev items with v :: _ => Some (as_bool v) | [] => last end.

(** every output is written completely, in order, after what was written before *)
Lemma emit_spec o items : no_raw0 o -> forall acc last,
  emit o items acc last = (acc ++ concat (map (render_or_empty o) items), last_of items last, true).
Proof.
  intros H. induction items as [|v r IH]; intros acc last.
  - cbn. rewrite app_nil_r. reflexivity.
  - cbn [emit]. destruct (render_some o v H) as [b Hb]. rewrite Hb. rewrite IH.
    cbn [map concat]. unfold render_or_empty at 2. rewrite Hb. rewrite <- app_assoc.
    f_equal. f_equal. unfold last_of. cbn [rev].
    destruct (rev r) as [|w ws] eqn:Er; cbn; reflexivity.
Qed.

Lemma emit_extends o items : forall out last, exists more, fst (fst (emit o items out last)) = out ++ more.
Proof.
  induction items as [|v r IH]; intros out last; cbn [emit]; [|destruct (render o v) as [b|]];
    try (exists []; symmetry; apply app_nil_r).
  destruct (IH (out ++ b) (Some (as_bool v))) as [m Hm]. exists (b ++ m). rewrite Hm. symmetry. apply app_assoc.
Qed.

(** what has been written is never taken back: the final stdout extends the earlier one *)
Lemma main_loop_extends fuel o p g inputs : forall out last,
  exists more, fst (main_loop fuel o p g inputs out last) = out ++ more.
Proof.
  induction inputs as [|x rest IH]; intros out last; cbn [main_loop]; [exists []; symmetry; apply app_nil_r|].
  destruct (collect (run_main fuel p g x)) as [items fin].
  destruct (emit_extends o items out last) as [m1 Hm1].
  destruct (emit o items out last) as [[out' last'] ok]. cbn [fst] in Hm1. subst out'.
  destruct (IH (out ++ m1) last') as [m2 Hm2].
  (* the loop stops here with [out ++ m1], or goes on from it *)
  destruct ok; [destruct fin as [|e| |]; [|destruct e| |]|]; cbn [negb]; try (exists m1; reflexivity).
  exists (m1 ++ m2). rewrite Hm2. symmetry. apply app_assoc.
Qed.

(** output options change only the rendering: the outcome (and hence the exit status) is the same *)
Lemma outcome_frame fuel o1 o2 p g inputs : no_raw0 o1 -> no_raw0 o2 -> forall out1 out2 last,
  snd (main_loop fuel o1 p g inputs out1 last) = snd (main_loop fuel o2 p g inputs out2 last).
Proof.
  intros H1 H2. induction inputs as [|x rest IH]; intros out1 out2 last; cbn [main_loop].
  - reflexivity.
  - destruct (collect (run_main fuel p g x)) as [items fin].
    rewrite (emit_spec o1 items H1), (emit_spec o2 items H2). cbn [negb].
    destruct fin as [|e| |]; try reflexivity.
    + apply IH.
    + destruct e; reflexivity.
Qed.

Lemma exit_code_table o :
  (forall last, o_exit_status o = false -> exit_code o (Finished last) = 0%Z) /\
  (o_exit_status o = true -> exit_code o (Finished None) = 4%Z /\ exit_code o (Finished (Some false)) = 1%Z /\ exit_code o (Finished (Some true)) = 0%Z) /\
  exit_code o RunError = 5%Z /\ (forall l, exit_code o (InputError l) = 5%Z) /\
  (forall c, (0 <= c < 256)%Z -> exit_code o (Halted c) = c) /\ exit_code o WriteError = 2%Z.
Proof.
  repeat split; intros; cbn; try rewrite H; try reflexivity.
  apply Z.mod_small. assumption.
Qed.
