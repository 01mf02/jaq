(** group_by, sort_by, min_by and max_by of the model (Std/Natives.v, mirroring jaq-std/src/lib.rs): the groups are the
    sorted input cut at the changes of key; the extrema are extremal for the order of keys. *)
From Coq Require Import ZArith List Lia.
From JaqV Require Import Base.Stream Val.Num Val.Val Val.Index Std.Natives Proofs.ValOrder.
Import ListNotations.

Definition un_arr (v : val) : list val := match v with Arr l => l | _ => [] end.

(** ** the groups, concatenated, are the sorted elements in their order; no group is empty *)
Lemma group_runs_concat l : forall k cur, concat (map un_arr (group_runs k cur l)) = rev cur ++ map snd l.
Proof.
  induction l as [|[k' x] r IH]; intros k cur; cbn [group_runs].
  - cbn. rewrite app_nil_r. reflexivity.
  - destruct (list_eqb_val k k').
    + rewrite IH. cbn [rev map snd]. rewrite <- app_assoc. reflexivity.
    + cbn [map concat un_arr]. rewrite IH. reflexivity.
Qed.

Lemma group_runs_nonempty l : forall k cur, cur <> [] -> Forall (fun g => exists x r, g = Arr (x :: r)) (group_runs k cur l).
Proof.
  assert (N : forall cur : list val, cur <> [] -> exists x r, Arr (rev cur) = Arr (x :: r)).
  { intros [|c cur] H; [congruence|]. cbn [rev]. destruct (rev cur); cbn [app]; eauto. }
  induction l as [|[k' x] r IH]; intros k cur Hne; cbn [group_runs].
  - constructor; [apply N; exact Hne|constructor].
  - destruct (list_eqb_val k k'); [apply IH; discriminate|].
    constructor; [apply N; exact Hne|apply IH; discriminate].
Qed.

(** ** the groups are the maximal runs of equal keys *)
(** the same cut with the keys kept *)
Fixpoint kruns (k : list val) (cur : list (list val * val)) (l : list (list val * val)) : list (list (list val * val)) :=
  match l with
  | [] => [rev cur]
  | (k', x) :: r =>
      if list_eqb_val k k' then kruns k ((k', x) :: cur) r
      else rev cur :: kruns k' [(k', x)] r
  end.

Lemma group_runs_kruns l : forall k cur, group_runs k (map snd cur) l = map (fun g => Arr (map snd g)) (kruns k cur l).
Proof.
  induction l as [|[k' x] r IH]; intros k cur; cbn [group_runs kruns].
  - cbn [map]. rewrite map_rev. reflexivity.
  - destruct (list_eqb_val k k').
    + apply (IH k ((k', x) :: cur)).
    + cbn [map]. rewrite map_rev. f_equal. apply (IH k' [(k', x)]).
Qed.

Lemma kruns_concat l : forall k cur, concat (kruns k cur l) = rev cur ++ l.
Proof.
  induction l as [|[k' x] r IH]; intros k cur; cbn [kruns].
  - cbn. rewrite app_nil_r. reflexivity.
  - destruct (list_eqb_val k k'); [rewrite IH; cbn [rev]; rewrite <- app_assoc; reflexivity|].
    cbn [concat]. rewrite IH. reflexivity.
Qed.

(** every further element of a group has the key of its first element; the next group starts with a different key *)
Definition tail_eq (k : list val) (g : list (list val * val)) : Prop := Forall (fun kv => list_eqb_val k (fst kv) = true) g.

Inductive maximal : list (list (list val * val)) -> Prop :=
| mx_one k x rest : tail_eq k rest -> maximal [(k, x) :: rest]
| mx_cons k x rest k' x' rest' gs :
    tail_eq k rest -> list_eqb_val k k' = false -> maximal (((k', x') :: rest') :: gs) ->
    maximal (((k, x) :: rest) :: ((k', x') :: rest') :: gs).

Lemma tail_eq_rev k g : tail_eq k g -> tail_eq k (rev g).
Proof. unfold tail_eq. rewrite !Forall_forall. intros H x Hx. apply H. apply in_rev. exact Hx. Qed.

Lemma kruns_head l : forall k x cur, exists g gs, kruns k (cur ++ [x]) l = (x :: g) :: gs.
Proof.
  induction l as [|[k' y] r IH]; intros k x cur; cbn [kruns].
  - rewrite rev_app_distr. cbn. eauto.
  - destruct (list_eqb_val k k').
    + apply (IH k x ((k', y) :: cur)).
    + rewrite rev_app_distr. cbn. eauto.
Qed.

Lemma kruns_maximal l : forall k x0 c, tail_eq k c -> maximal (kruns k (c ++ [(k, x0)]) l).
Proof.
  induction l as [|[k' x] r IH]; intros k x0 c Hc; cbn [kruns].
  - rewrite rev_app_distr. cbn [rev app]. constructor. apply tail_eq_rev. exact Hc.
  - destruct (list_eqb_val k k') eqn:E.
    + apply (IH k x0 ((k', x) :: c)). constructor; [exact E|exact Hc].
    + rewrite rev_app_distr. cbn [rev app].
      pose proof (IH k' x [] ltac:(constructor)) as M. cbn [app] in M.
      destruct (kruns_head r k' (k', x) []) as (g & gs & Eg). cbn [app] in Eg. rewrite Eg in *.
      constructor; [apply tail_eq_rev; exact Hc|exact E|exact M].
Qed.

(** when the key filter yields its keys for every element, group_by returns the groups of the sorted keyed list: their
    concatenation is what sort_by returns, none is empty, and they are the maximal runs of equal keys *)
Theorem group_by_spec f xs kx : keyed f xs = (kx, FEnd) ->
  let sorted := sort_by (fun a b => keys_cmp (fst a) (fst b)) kx in
  exists groups, group_by_f f xs = sone (Arr (map (fun g => Arr (map snd g)) groups))
    /\ concat groups = sorted
    /\ (sorted <> [] -> maximal groups)
    /\ (sorted = [] -> groups = []).
Proof.
  intros K. cbv zeta. unfold group_by_f. rewrite K. destruct (sort_by _ kx) as [|[k x] r] eqn:E.
  - exists []. split; [reflexivity|]. split; [reflexivity|]. split; [intros H; congruence|intros _; reflexivity].
  - exists (kruns k [(k, x)] r). split; [|split; [|split]].
    + change [x] with (map snd [(k, x)]). rewrite group_runs_kruns. reflexivity.
    + apply (kruns_concat r k [(k, x)]).
    + intros _. apply (kruns_maximal r k x []). constructor.
    + discriminate.
Qed.

(** sort_by returns the elements of the sorted keyed list - the concatenation of the groups *)
Theorem sort_by_spec f xs kx : keyed f xs = (kx, FEnd) -> (2 <= length xs)%nat ->
  sort_by_f f xs = sone (Arr (map snd (sort_by (fun a b => keys_cmp (fst a) (fst b)) kx))).
Proof.
  intros K L. unfold sort_by_f. destruct (Nat.ltb_spec (length xs) 2); [lia|]. rewrite K. reflexivity.
Qed.

Lemma keyed_elements f xs : forall kx, keyed f xs = (kx, FEnd) -> map snd kx = xs.
Proof.
  induction xs as [|x r IH]; intros kx K; cbn [keyed] in K; [injection K as <-; reflexivity|].
  destruct (collect (f x)) as [ks t]. destruct t; try (injection K as <- ?; discriminate).
  destruct (keyed f r) as [rest t'] eqn:R. injection K as <- ->. cbn [map snd]. f_equal. apply IH. reflexivity.
Qed.

Section EXTREMA.
  Variable N : num -> Prop.
  Hypothesis HN : tpo num_cmp N.

  Definition keys_ok (kv : list val * val) : Prop := Forall (vok N) (fst kv).

  Lemma keys_tpo : tpo keys_cmp (Forall (vok N)).
  Proof. unfold keys_cmp. apply lex_tpo. apply val_cmp_tpo. exact HN. Qed.

  (** one round of the fold of [extremal_by], written out to have a name (convertible with the model's) *)
  Definition extremal_step (is_max : bool) (best cand : list val * val) : list val * val :=
    let c := keys_cmp (fst cand) (fst best) in
    let replace := if is_max then match c with Lt => false | _ => true end
                   else match c with Lt => true | _ => false end in
    if replace then cand else best.

  (** [le_dir is_max a b]: a is at least as extreme as b *)
  Definition le_dir (is_max : bool) (a b : list val * val) : Prop :=
    if is_max then keys_cmp (fst b) (fst a) <> Gt else keys_cmp (fst a) (fst b) <> Gt.

  Lemma le_dir_refl is_max a : keys_ok a -> le_dir is_max a a.
  Proof. intros Ha. unfold le_dir. rewrite (tp_refl _ _ keys_tpo _ Ha). destruct is_max; discriminate. Qed.

  Lemma le_dir_trans is_max a b d : keys_ok a -> keys_ok b -> keys_ok d ->
    le_dir is_max a b -> le_dir is_max b d -> le_dir is_max a d.
  Proof.
    intros Ha Hb Hd. unfold le_dir. destruct is_max; intros L1 L2; apply (tp_le _ _ keys_tpo _ (fst b)); assumption.
  Qed.

  (** one round keeps one of the two and the one it keeps is at least as extreme as both *)
  Lemma extremal_step_spec is_max best cand : keys_ok best -> keys_ok cand ->
    let s := extremal_step is_max best cand in (s = best \/ s = cand) /\ le_dir is_max s best /\ le_dir is_max s cand.
  Proof.
    intros Hb Hc. unfold extremal_step, le_dir. cbv zeta.
    destruct is_max, (keys_cmp (fst cand) (fst best)) eqn:E; cbn iota; (split; [auto|]);
      rewrite (tp_refl _ _ keys_tpo) by assumption;
      rewrite ?(tp_anti _ _ keys_tpo (fst cand) (fst best) Hc Hb), ?E; split; discriminate.
  Qed.

  Lemma fold_extremal is_max r : forall best, keys_ok best -> Forall keys_ok r ->
    let res := fold_left (extremal_step is_max) r best in
    keys_ok res /\ In res (best :: r) /\ Forall (le_dir is_max res) (best :: r).
  Proof.
    induction r as [|cand r IH]; intros best Hb Hr; cbn [fold_left].
    - split; [exact Hb|]. split; [left; reflexivity|]. constructor; [apply le_dir_refl; exact Hb|constructor].
    - inversion Hr as [|? ? Hc Hr']; subst.
      destruct (extremal_step_spec is_max best cand Hb Hc) as (S & Lb & Lc). set (s := extremal_step is_max best cand) in *.
      assert (Hs : keys_ok s) by (destruct S as [->| ->]; assumption).
      destruct (IH s Hs Hr') as (Hres & Hin & Hle). cbv zeta. inversion Hle as [|? ? Ls Hle']; subst.
      split; [exact Hres|]. split.
      + destruct Hin as [<-|Hin]; [destruct S as [->| ->]; [left|right; left]; reflexivity|right; right; exact Hin].
      + (* the result dominates s, which dominates both best and cand *)
        constructor; [|constructor; [|exact Hle']]; apply (le_dir_trans is_max _ s); assumption.
  Qed.

  (** the result is an element of the input whose keys are extremal: not greater (min_by) / not smaller (max_by) than the keys
      of any element *)
  Theorem extremal_by_spec is_max f xs kx : keyed f xs = (kx, FEnd) -> Forall keys_ok kx ->
    match kx with
    | [] => extremal_by is_max f xs = SNil
    | _ => exists kv, In kv kx /\ extremal_by is_max f xs = sone (snd kv) /\ Forall (le_dir is_max kv) kx
    end.
  Proof.
    intros K Hk. unfold extremal_by. rewrite K. destruct kx as [|[k x] r]; [reflexivity|].
    inversion Hk as [|? ? Hb Hr]; subst.
    destruct (fold_extremal is_max r (k, x) Hb Hr) as (_ & Hin & Hle).
    exists (fold_left (extremal_step is_max) r (k, x)). split; [exact Hin|]. split; [reflexivity|exact Hle].
  Qed.
End EXTREMA.
