(** Compiler correctness for the binding core of the language (the programs of [frag]: no definitions, patterns that are
    one variable): the compiled term run by the interpreter (variables as positions in the context) computes exactly the
    named semantics (variables by name). *)
From Coq Require Import ZArith Bool List Lia.
From JaqV Require Import Base.Bytes Base.Stream Val.Num Val.Val Val.Err Val.Arith Core.Syntax Core.Compile Core.Natives Core.Run
  Proofs.CompileCommon.
Import ListNotations.

Section CC.
  Variable g : genv.
  Variable d : val -> bytes.
  Variable nr : nat -> bytes -> list narg -> val -> option (str val).
  Variable defs : list term.
  Notation run := (run d nr defs).

  Definition nenv := list (cbind * bind).
  Fixpoint lookup (rho : nenv) (x : cbind) : option bind :=
    match rho with [] => None | (y, a) :: r => if cbind_eqb x y then Some a else lookup r x end.

  Fixpoint fold_go (step : val -> val -> str val) (emit : val -> val -> str val) (fin : val -> str val)
      (s : str val) (acc : val) : str val :=
    match s with
    | SNil => fin acc
    | SCons y k => sbind (step y acc) (fun z => sapp (emit y z) (fun _ => fold_go step emit fin (k tt) z))
    | SExn e => SExn e
    | SBot => SBot
    | SUnk => SUnk
    end.

  Fixpoint sem (n : nat) (t : pterm) (rho : nenv) (lab : nat) (v : val) {struct n} : str val :=
    match n with
    | O => SBot
    | S n =>
        let cart := fun l r => sbind (sem n l rho lab v) (fun x => smap (fun y => (x, y)) (sem n r rho lab v)) in
        match t with
        | PId => sone v
        | PNum x => sone (match int_literal x with Some i => vint i | None => Num (from_str x) end)
        | PVar x => match lookup rho (CVar x) with Some (BVar a) => sone a | _ => SUnk end
        | PBreak x => match lookup rho (CLabel x) with Some (BLabel l) => SExn (XBreak l) | _ => SUnk end
        | PLabel x t => slabel (S lab) (sem n t ((CLabel x, BLabel (S lab)) :: rho) (S lab) v)
        | PNeg t => sbind (sem n t rho lab v) (fun x => of_res (vneg x))
        | PArr (Some t) => collect_then (sem n t rho lab v) (fun l => sone (Arr l))
        | PTryCatch t (Some c) => stry (sem n t rho lab v) (fun e => sem n c rho lab (err_val d e))
        | PIte [(i, th)] (Some el) => sbind (sem n i rho lab v) (fun x => sem n (if as_bool x then th else el) rho lab v)
        | PBinOp l op r =>
            match op with
            | BPipe None => sbind (sem n l rho lab v) (fun y => sem n r rho lab y)
            | BPipe (Some (PPVar x)) => sbind (sem n l rho lab v) (fun y => sem n r ((CVar x, BVar y) :: rho) lab v)
            | BComma => sapp (sem n l rho lab v) (fun _ => sem n r rho lab v)
            | BAlt => match sfilter as_bool (sem n l rho lab v) with SNil => sem n r rho lab v | s => s end
            | BMath o => sbind (cart l r) (fun xy => of_res_opt (math_run o (fst xy) (snd xy)))
            | BCmp o => smap (fun xy => Bool (cmp_run o (fst xy) (snd xy))) (cart l r)
            | BOr => sbind (sem n l rho lab v) (fun x => if Bool.eqb (as_bool x) true then sone (Bool true)
                                                     else smap (fun y => Bool (as_bool y)) (sem n r rho lab v))
            | BAnd => sbind (sem n l rho lab v) (fun x => if Bool.eqb (as_bool x) false then sone (Bool false)
                                                      else smap (fun y => Bool (as_bool y)) (sem n r rho lab v))
            | _ => SUnk
            end
        | PPath t path => sbind (sem n t rho lab v) (fun y => sbind (sexplode n path rho lab v) (fun ps => path_run ps y))
        | PFold name xs (PPVar x) (init :: upd :: rest) =>
            let xsv := match n with O => SBot | S n' => sem n' xs rho lab v end in
            let step := fun y acc => sem n upd ((CVar x, BVar y) :: rho) lab acc in
            if bytes_eqb name name_reduce then
              match rest with
              | [] => sbind (sem n init rho lab v) (fold_go step (fun _ _ => SNil) sone xsv)
              | _ => SUnk
              end
            else if bytes_eqb name name_foreach then
              match rest with
              | [] => sbind (sem n init rho lab v) (fold_go step (fun _ z => sone z) (fun _ => SNil) xsv)
              | [proj] => sbind (sem n init rho lab v) (fold_go step (fun y z => sem n proj ((CVar x, BVar y) :: rho) lab z) (fun _ => SNil) xsv)
              | _ => SUnk
              end
            else SUnk
        | _ => SUnk
        end
    end

  (** all combinations, first component outermost, as [Path::explode] *)
  with sexplode (n : nat) (path : list (ppart * bool)) (rho : nenv) (lab : nat) (v : val) {struct n} : str (list (vpart * bool)) :=
    match n with
    | O => SBot
    | S n =>
        match path with
        | [] => sone []
        | (p, opt) :: rest =>
            let ps :=
              match p with
              | PIndex i => smap VIndex (sem n i rho lab v)
              | PRange None None => sone (VRange None None)
              | PRange (Some f) None => smap (fun x => VRange (Some x) None) (sem n f rho lab v)
              | PRange None (Some u) => smap (fun x => VRange None (Some x)) (sem n u rho lab v)
              | PRange (Some f) (Some u) =>
                  sbind (sem n f rho lab v) (fun x => smap (fun y => VRange (Some x) (Some y)) (sem n u rho lab v))
              end in
            sbind ps (fun p' => smap (fun r => (p', opt) :: r) (sexplode n rest rho lab v))
        end
    end.

  Inductive frag : list cbind -> nat -> pterm -> Prop :=
  | f_id b n : frag b (S n) PId
  | f_num b n x : frag b (S n) (PNum x)
  | f_var b n x : In (CVar x) b -> frag b (S n) (PVar x)
  | f_neg b n t : frag b n t -> frag b (S n) (PNeg t)
  | f_arr b n t : frag b n t -> frag b (S n) (PArr (Some t))
  | f_try b n t c : frag b n t -> frag b n c -> frag b (S n) (PTryCatch t (Some c))
  | f_ite b n i th el : frag b n i -> frag b n th -> frag b n el -> frag b (S n) (PIte [(i, th)] (Some el))
  | f_pipe b n l r : frag b n l -> frag b n r -> frag b (S n) (PBinOp l (BPipe None) r)
  | f_bind b n l x r : frag b n l -> frag (CVar x :: b) n r -> frag b (S (S n)) (PBinOp l (BPipe (Some (PPVar x))) r)
  | f_comma b n l r : frag b n l -> frag b n r -> frag b (S n) (PBinOp l BComma r)
  | f_alt b n l r : frag b n l -> frag b n r -> frag b (S n) (PBinOp l BAlt r)
  | f_math b n l o r : frag b n l -> frag b n r -> frag b (S n) (PBinOp l (BMath o) r)
  | f_cmp b n l o r : frag b n l -> frag b n r -> frag b (S n) (PBinOp l (BCmp o) r)
  | f_or b n l r : frag b n l -> frag b n r -> frag b (S n) (PBinOp l BOr r)
  | f_and b n l r : frag b n l -> frag b n r -> frag b (S n) (PBinOp l BAnd r)
  | f_path b n t ps : frag b n t -> frag_parts b n ps -> frag b (S n) (PPath t ps)
  | f_reduce b n xs x init upd : frag b n xs -> frag b (S n) init -> frag (CVar x :: b) (S n) upd ->
      frag b (S (S n)) (PFold name_reduce xs (PPVar x) [init; upd])
  | f_foreach b n xs x init upd : frag b n xs -> frag b (S n) init -> frag (CVar x :: b) (S n) upd ->
      frag b (S (S n)) (PFold name_foreach xs (PPVar x) [init; upd])
  | f_foreach3 b n xs x init upd proj : frag b n xs -> frag b (S n) init -> frag (CVar x :: b) (S n) upd -> frag (CVar x :: b) (S n) proj ->
      frag b (S (S n)) (PFold name_foreach xs (PPVar x) [init; upd; proj])
  | f_label b n x t : frag (CLabel x :: b) n t -> frag b (S n) (PLabel x t)
  | f_break b n x : In (CLabel x) b -> frag b (S n) (PBreak x)
  with frag_parts : list cbind -> nat -> list (ppart * bool) -> Prop :=
  | fp_nil b n : frag_parts b n []
  | fp_index b n i o ps : frag b n i -> frag_parts b n ps -> frag_parts b n ((PIndex i, o) :: ps)
  | fp_all b n o ps : frag_parts b n ps -> frag_parts b n ((PRange None None, o) :: ps)
  | fp_from b n f o ps : frag b n f -> frag_parts b n ps -> frag_parts b n ((PRange (Some f) None, o) :: ps)
  | fp_upto b n u o ps : frag b n u -> frag_parts b n ps -> frag_parts b n ((PRange None (Some u), o) :: ps)
  | fp_both b n f u o ps : frag b n f -> frag b n u -> frag_parts b n ps -> frag_parts b n ((PRange (Some f) (Some u), o) :: ps).

  Scheme frag_ind2 := Minimality for frag Sort Prop
    with frag_parts_ind2 := Minimality for frag_parts Sort Prop.
  Combined Scheme frag_mutind from frag_ind2, frag_parts_ind2.

  Definition scoped (b : list cbind) (e : env) : Prop := forall x, In x b -> index_of x (e_vars e) 0 <> None.
  Definition kind_ok (x : cbind) (a : bind) : Prop :=
    match x, a with CVar _, BVar _ | CLabel _, BLabel _ => True | _, _ => False end.
  Definition agrees (e : env) (c : ctx) (rho : nenv) : Prop :=
    forall x i, index_of x (e_vars e) 0 = Some i ->
    exists a, nth_error (vars c) i = Some a /\ lookup rho x = Some a /\ kind_ok x a.

  Lemma agrees_push_gen e (c c' : ctx) rho x a :
    vars c' = a :: vars c -> kind_ok x a -> agrees e c rho -> agrees (push_var x e) c' ((x, a) :: rho).
  Proof.
    intros Hv Hk H y i. unfold push_var. cbn [e_vars lookup]. rewrite Hv, index_of_cons.
    destruct (cbind_eqb y x) eqn:E.
    - intros Hi. injection Hi as <-. exists a. apply cbind_eqb_eq in E. subst y. repeat split; assumption.
    - destruct (index_of y (e_vars e) 0) as [j|] eqn:Ej; [|discriminate]. intros Hi. injection Hi as <-.
      destruct (H y j Ej) as (a' & Hn & Hl & Hk'). exists a'. repeat split; assumption.
  Qed.

  (** named environments are the whole state of the semantics, the compiler's state does not change *)
  Definition correct_sim : sim :=
    {| NE := nenv; Sem := sem; SemX := sexplode;
       bindv := fun x y rho => (CVar x, BVar y) :: rho; bindl := fun x l rho => (CLabel x, BLabel l) :: rho;
       Inv := fun _ _ => agrees; Ext := eq; Cov := fun _ _ _ => True |}.

  Lemma correct_sim_ok : sim_ok d nr correct_sim.
  Proof.
    split; cbn [correct_sim NE Sem SemX bindv bindl Inv Ext Cov]; try congruence; auto.
    - split; reflexivity.
    - intros _ _ e c rho x y. apply agrees_push_gen; [reflexivity|exact I].
    - intros _ _ e c rho x. apply agrees_push_gen; [reflexivity|exact I].
    - intros ds fuel e c rho x i v Hag Ei. destruct fuel as [|fuel]; [reflexivity|]. cbn [Run.run sem].
      destruct (Hag (CVar x) i Ei) as (a & Hn & Hl & Hk). unfold nth_bind. rewrite Hn, Hl. destruct a; try contradiction. reflexivity.
    - intros ds fuel e c rho x i v Hag Ei. destruct fuel as [|fuel]; [reflexivity|]. cbn [Run.run sem].
      destruct (Hag (CLabel x) i Ei) as (a & Hn & Hl & Hk). unfold nth_bind. rewrite Hn, Hl. destruct a; try contradiction. reflexivity.
  Qed.

  Notation compiles := (compiles g d nr correct_sim).
  Notation compiles_parts := (compiles_parts g d nr correct_sim).

  Lemma compile_correct_mut :
    (forall b n t, frag b n t -> compiles b (fun _ => True) n t)
    /\ (forall b n ps, frag_parts b n ps -> compiles_parts b (fun _ => True) n ps).
  Proof.
    apply frag_mutind; intros.
    - apply (compiles_id correct_sim_ok).
    - apply (compiles_num correct_sim_ok).
    - apply (compiles_var correct_sim_ok); assumption.
    - apply (compiles_neg correct_sim_ok); assumption.
    - apply (compiles_arr correct_sim_ok); assumption.
    - apply (compiles_try correct_sim_ok); assumption.
    - apply (compiles_ite correct_sim_ok); assumption.
    - apply (compiles_pipe correct_sim_ok); assumption.
    - apply (compiles_bind correct_sim_ok); assumption.
    - apply (compiles_comma correct_sim_ok); assumption.
    - apply (compiles_alt correct_sim_ok); assumption.
    - apply (compiles_binop correct_sim_ok); [exact I|assumption..].
    - apply (compiles_binop correct_sim_ok); [exact I|assumption..].
    - apply (compiles_binop correct_sim_ok); [exact I|assumption..].
    - apply (compiles_binop correct_sim_ok); [exact I|assumption..].
    - apply (compiles_path correct_sim_ok); assumption.
    - apply (compiles_reduce correct_sim_ok); assumption.
    - apply (compiles_foreach correct_sim_ok); assumption.
    - apply (compiles_foreach3 correct_sim_ok); assumption.
    - apply (compiles_label correct_sim_ok); assumption.
    - apply (compiles_break correct_sim_ok); assumption.
    - apply (compiles_parts_nil correct_sim_ok).
    - apply (compiles_parts_cons correct_sim_ok); [|assumption]; cbn; auto.
    - apply (compiles_parts_cons correct_sim_ok); [|assumption]; cbn; auto.
    - apply (compiles_parts_cons correct_sim_ok); [|assumption]; cbn; auto.
    - apply (compiles_parts_cons correct_sim_ok); [|assumption]; cbn; auto.
    - apply (compiles_parts_cons correct_sim_ok); [|assumption]; cbn; auto.
  Qed.

  Theorem compile_correct b n t : frag b n t -> forall m e s tr, (n <= m)%nat -> scoped b e ->
    exists k trr, c_term g m e s t tr = ((k, trr), s)
                  /\ forall fuel c rho v, agrees e c rho -> run fuel k c v = sem fuel t rho (labels c) v.
  Proof.
    intros H m e s tr Hm Hsc. destruct (proj1 compile_correct_mut b n t H m e s tr Hm Hsc I) as (k & trr & s' & E & <- & R).
    exists k, trr. split; [exact E|exact (R defs I)].
  Qed.

  Corollary compile_correct_closed n t : frag [] n t ->
    exists k trr, c_term g n empty_env empty_cst t [] = ((k, trr), empty_cst)
                  /\ forall fuel v, run fuel k {| vars := []; labels := 0 |} v = sem fuel t [] 0 v.
  Proof.
    intros H. destruct (compile_correct [] n t H n empty_env empty_cst [] (le_n n)) as (k & trr & E & Hr).
    - intros x [].
    - exists k, trr. split; [exact E|]. intros fuel v. apply Hr. intros x i Hi. discriminate Hi.
  Qed.
End CC.

(** 1 as $x | ($x + 2, (3 as $x | $x), .) *)
Example frag_ex :
  let vx := of_ascii [36; 120]%Z in
  frag [] 8 (PBinOp (PNum (of_ascii [49]%Z)) (BPipe (Some (PPVar vx)))
              (PBinOp (PBinOp (PVar vx) (BMath Add) (PNum (of_ascii [50]%Z))) BComma
                 (PBinOp (PBinOp (PNum (of_ascii [51]%Z)) (BPipe (Some (PPVar vx))) (PVar vx)) BComma PId))).
Proof.
  cbv zeta. apply f_bind; [constructor|]. apply f_comma.
  - apply f_math; [apply f_var; left; reflexivity|constructor].
  - apply f_comma; [|constructor]. apply f_bind; [constructor|]. apply f_var. left. reflexivity.
Qed.
