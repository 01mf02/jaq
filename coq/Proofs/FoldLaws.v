(** reduce and foreach of the interpreter are the manual's nested-pipe expansion; native range is the arithmetic progression. *)
From Coq Require Import ZArith List Lia.
From JaqV Require Import Base.Bytes Base.Stream Val.Num Val.Val Core.Syntax Core.Natives Core.Run Proofs.MonadLaws Proofs.StreamLaws.
From JaqV Require Proofs.CompileCommon Proofs.CompileCorrect.
Import ListNotations.

Section FOLD.
  Variable d : val -> bytes.
  Variable nr : nat -> bytes -> list narg -> val -> option (str val).
  Variable defs : list term.
  Notation run := (run d nr defs).
  Notation fold_go := CompileCorrect.fold_go.

  Definition emit_of (fuel : nat) (ft : foldtype) (c : ctx) (y z : val) : str val :=
    match ft with Reduce => SNil | Foreach None => sone z | Foreach (Some p) => run fuel p (cons_var y c) z end.
  Definition fin_of (ft : foldtype) (acc : val) : str val :=
    match ft with Reduce => sone acc | Foreach _ => SNil end.

  Theorem fold_expansion fuel xs init upd ft c v :
    run (S (S fuel)) (KFold xs PatVar init upd ft) c v
    = sbind (run (S fuel) init c v)
        (fold_go (fun y acc => run (S fuel) upd (cons_var y c) acc) (emit_of (S fuel) ft c) (fin_of ft) (run fuel xs c v)).
  Proof.
    rewrite (CompileCommon.run_fold d nr defs), (CompileCommon.run_and_bind_var d nr defs). apply sbind_ext. intros i.
    apply (CompileCommon.fold_ctx_vals d nr defs); intros; reflexivity.
  Qed.

  (** the fold over the outputs y1, y2, ... is the nested pipe upd[y1] | (proj[y1], (upd[y2] | (proj[y2], ...))), ending in
      the accumulator (reduce) or in nothing (foreach) *)
  Theorem fold_go_unroll step emit fin :
    (forall acc, fold_go step emit fin SNil acc = fin acc)
    /\ (forall y k acc, fold_go step emit fin (SCons y k) acc
                        = sbind (step y acc) (fun z => sapp (emit y z) (fun _ => fold_go step emit fin (k tt) z)))
    /\ (forall e acc, fold_go step emit fin (SExn e) acc = SExn e).
  Proof. repeat split. Qed.

  (** init | (y1 as $x | upd) | (y2 as $x | upd) | ... *)
  Fixpoint reduce_pipes (step : val -> val -> str val) (ys : list val) (acc : val) : str val :=
    match ys with [] => sone acc | y :: r => sbind (step y acc) (reduce_pipes step r) end.

  Theorem reduce_is_nested_pipes fuel xs init upd c v ys : run fuel xs c v = of_list ys ->
    run (S (S fuel)) (KFold xs PatVar init upd Reduce) c v
    = sbind (run (S fuel) init c v) (reduce_pipes (fun y acc => run (S fuel) upd (cons_var y c) acc) ys).
  Proof.
    intros E. rewrite fold_expansion, E. clear E. apply sbind_ext.
    induction ys as [|y r IH]; intros acc; [reflexivity|]. cbn [of_list CompileCorrect.fold_go reduce_pipes].
    apply sbind_ext. intros z. apply IH.
  Qed.
End FOLD.

Local Open Scope Z_scope.

Theorem range_up n : forall a b c fuel, 0 < c ->
  (forall i, (i < n)%nat -> a + Z.of_nat i * c < b) -> b <= a + Z.of_nat n * c ->
  (forall i, (i <= n)%nat -> in_isize (a + Z.of_nat i * c) = true) -> (n < fuel)%nat ->
  range fuel (vint a) (vint b) (vint c) = of_list (map (fun i => vint (a + Z.of_nat i * c)) (seq 0 n)).
Proof.
  unfold range. intros a b c fuel Hc. rewrite val_cmp_int. assert (c ?= 0 = Gt) as -> by (apply Z.compare_gt_iff; lia).
  revert a fuel. induction n as [|n IH]; intros a fuel Hlt Hge Hin Hf; (destruct fuel as [|fuel]; [lia|]); cbn [range_go].
  - rewrite val_ltb_int. destruct (Z.ltb_spec a b); [lia|]. reflexivity.
  - rewrite val_ltb_int. pose proof (Hlt O ltac:(lia)) as H0. destruct (Z.ltb_spec a b); [|lia].
    cbn [seq map of_list]. replace (a + Z.of_nat 0 * c) with a by lia. apply SCons_ext.
    rewrite vadd_int by (specialize (Hin 1%nat ltac:(lia)); replace (a + c) with (a + Z.of_nat 1 * c) by lia; exact Hin).
    rewrite (IH (a + c) fuel).
    + rewrite <- seq_shift, map_map. f_equal. apply map_ext. intros i. f_equal. lia.
    + intros i Hi. specialize (Hlt (S i) ltac:(lia)). lia.
    + lia.
    + intros i Hi. specialize (Hin (S i) ltac:(lia)). replace (a + c + Z.of_nat i * c) with (a + Z.of_nat (S i) * c) by lia. exact Hin.
    + lia.
Qed.

Example range_ex : range 10 (vint 1) (vint 10) (vint 2) = of_list [vint 1; vint 3; vint 5; vint 7; vint 9].
Proof. apply (range_up 5 1 10 2 10); try lia; intros i Hi; do 6 (destruct i as [|i]; [try lia; try reflexivity|]); lia. Qed.
