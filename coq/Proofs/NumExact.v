(** Integer arithmetic of [Num] is exact at any size and representation-independent. *)
From Coq Require Import ZArith Bool Lia.
From JaqV Require Import Base.F64 Val.Num Proofs.F64Order.
Local Open Scope Z_scope.

Lemma int_val_int_or_big z : int_val (int_or_big z) = Some z.
Proof. unfold int_or_big. destruct (in_isize z); reflexivity. Qed.

Lemma is_int_val x : is_int x = match int_val x with Some _ => true | None => false end.
Proof. destruct x; reflexivity. Qed.

(** [op] is [zop] on integers - exact, whatever the representation - and otherwise [fop], the IEEE operation on the
    converted operands *)
Definition lifts (op : num -> num -> num) (zop fop : Z -> Z -> Z) : Prop := forall x y,
  match int_val x, int_val y with
  | Some a, Some b => int_val (op x y) = Some (zop a b)
  | _, _ => op x y = Flt (fop (to_f64 x) (to_f64 y))
  end.

Lemma add_lifts : lifts add Z.add fadd.
Proof. intros [a|a|f|s] [b|b|g|t]; cbn; rewrite ?int_val_int_or_big; try reflexivity. f_equal. apply Z.add_comm. Qed.

Lemma sub_lifts : lifts sub Z.sub fsub.
Proof. intros [a|a|f|s] [b|b|g|t]; cbn; rewrite ?int_val_int_or_big; reflexivity. Qed.

Lemma mul_lifts : lifts mul Z.mul fmul.
Proof. intros [a|a|f|s] [b|b|g|t]; cbn; rewrite ?int_val_int_or_big; try reflexivity. f_equal. apply Z.mul_comm. Qed.

(** truncated remainder, sign of the dividend (also [isize::MIN % -1 = 0]) *)
Lemma rem_lifts : lifts rem Z.rem frem.
Proof. intros [a|a|f|s] [b|b|g|t]; reflexivity. Qed.

Section LIFTS.
  Context (op : num -> num -> num) (zop fop : Z -> Z -> Z) (H : lifts op zop fop).

  Lemma lifts_exact x y a b : int_val x = Some a -> int_val y = Some b -> int_val (op x y) = Some (zop a b).
  Proof. intros Hx Hy. specialize (H x y). rewrite Hx, Hy in H. exact H. Qed.

  Lemma lifts_int_iff x y : is_int (op x y) = is_int x && is_int y.
  Proof.
    specialize (H x y). rewrite !is_int_val. destruct (int_val x), (int_val y); rewrite H; reflexivity.
  Qed.

  Lemma lifts_float x y : is_int x && is_int y = false -> op x y = Flt (fop (to_f64 x) (to_f64 y)).
  Proof.
    specialize (H x y). rewrite !is_int_val. destruct (int_val x), (int_val y); try discriminate; intros _; exact H.
  Qed.
End LIFTS.

Lemma neg_exact x a : int_val x = Some a -> int_val (neg x) = Some (- a).
Proof.
  destruct x; cbn; intros E; try discriminate; injection E as <-; rewrite ?int_val_int_or_big; reflexivity.
Qed.

Lemma rem_min_neg1 : Z.rem isize_min (-1) = 0.
Proof. reflexivity. Qed.

Lemma div_never_int x y : is_int (div x y) = false.
Proof. reflexivity. Qed.

Lemma in_isize_spec z : in_isize z = true <-> - two63 <= z < two63.
Proof. unfold in_isize, isize_min, isize_max. rewrite andb_true_iff, !Z.leb_le. lia. Qed.

(** integer consumers see only the value: equal integers, however stored, give equal results *)
Lemma as_isize_int_val x : num_is_wf x = true ->
  as_isize x = match int_val x with Some a => if in_isize a then Some a else None | None => None end.
Proof. destruct x; cbn; intros W; rewrite ?W; reflexivity. Qed.

Lemma as_pos_usize_int_val x : num_is_wf x = true ->
  as_pos_usize x = option_map (fun a => (0 <=? a, Z.min (Z.abs a) usize_max)) (int_val x).
Proof.
  destruct x as [i| | |]; cbn [as_pos_usize int_val option_map num_is_wf]; intros W; try reflexivity.
  apply in_isize_spec in W. unfold usize_max. rewrite two64_two63, Z.min_l by lia. reflexivity.
Qed.

Lemma repr_independent_index x y a : int_val x = Some a -> int_val y = Some a ->
  num_is_wf x = true -> num_is_wf y = true -> as_pos_usize x = as_pos_usize y /\ as_isize x = as_isize y.
Proof. intros Hx Hy Wx Wy. rewrite !as_pos_usize_int_val, !as_isize_int_val, Hx, Hy by assumption. split; reflexivity. Qed.

Lemma num_cmp_ints x y a b : int_val x = Some a -> int_val y = Some b -> num_cmp x y = Z.compare a b.
Proof.
  destruct x, y; cbn; intros H1 H2; try discriminate; injection H1 as <-; injection H2 as <-; reflexivity.
Qed.

Lemma num_eqb_ints x y a b : int_val x = Some a -> int_val y = Some b -> num_eqb x y = (a =? b).
Proof.
  destruct x, y; cbn; intros H1 H2; try discriminate; injection H1 as <-; injection H2 as <-;
  try reflexivity; apply Z.eqb_sym.
Qed.

(** integers of any size and representation: the order and equality of the mathematical integers *)
Lemma int_order_exact x y a b : int_val x = Some a -> int_val y = Some b ->
  num_cmp x y = Z.compare a b /\ num_eqb x y = (a =? b).
Proof. intros Hx Hy. split; [apply num_cmp_ints | apply num_eqb_ints]; assumption. Qed.
