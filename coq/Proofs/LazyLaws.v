(** Laziness: what a consumer of a prefix obtains does not depend on the remainder of the stream, whatever that remainder
    is (an error, a halt, a break, divergence [SBot], more items).  [pre k s] are the first [k] items of [s] obtained
    without looking at anything after them. *)
From Coq Require Import ZArith List Lia.
From JaqV Require Import Base.Stream Val.Num Val.Val Val.Err Core.Natives Core.Run Proofs.MonadLaws Proofs.StreamLaws.
Import ListNotations.
Local Open Scope Z_scope.

Fixpoint pre {A} (k : nat) (s : str A) : option (list A) :=
  match k with
  | O => Some []
  | S k => match s with
           | SCons x t => match pre k (t tt) with Some l => Some (x :: l) | None => None end
           | _ => None
           end
  end.

(** a fact about [pre k s = Some l] is proved along the two clauses of [pre] *)
Lemma pre_ind {A} (P : nat -> str A -> list A -> Prop) :
  (forall s, P O s []) ->
  (forall k x t l, pre k (t tt) = Some l -> P k (t tt) l -> P (S k) (SCons x t) (x :: l)) ->
  forall k s l, pre k s = Some l -> P k s l.
Proof.
  intros H0 HS. induction k as [|k IH]; intros s l H; cbn in H.
  - injection H as <-. apply H0.
  - destruct s as [|x t|e| |]; try discriminate. destruct (pre k (t tt)) as [l'|] eqn:E; [|discriminate].
    injection H as <-. apply HS; [exact E|apply IH, E].
Qed.

Lemma pre_length {A} k : forall (s : str A) l, pre k s = Some l -> length l = k.
Proof. revert k. apply pre_ind; [reflexivity|]. intros k x t l _ IH. cbn. rewrite IH. reflexivity. Qed.

(** the items [l] are the first items of [s] ... *)
Lemma pre_split {A} : forall k (s : str A) l, pre k s = Some l -> exists r, s = sapp (of_list l) r.
Proof.
  apply pre_ind; [intros s; exists (fun _ => s); reflexivity|].
  intros k x t l _ [r IH]. exists r. cbn. apply SCons_ext, IH.
Qed.

(** ... and conversely, without extensionality *)
Lemma pre_of_list {A} (xs : list A) r : forall k, (k <= length xs)%nat -> pre k (sapp (of_list xs) r) = Some (firstn k xs).
Proof.
  induction xs as [|x xs IH]; intros [|k] Hk; try reflexivity; cbn in Hk; [lia|].
  cbn [of_list sapp pre firstn]. rewrite IH by lia. reflexivity.
Qed.

(** ** the combinators hand the prefix through *)
Lemma pre_sapp {A} r : forall k (s : str A) l, pre k s = Some l -> pre k (sapp s r) = Some l.
Proof. apply pre_ind; [reflexivity|]. intros k x t l _ IH. cbn. rewrite IH. reflexivity. Qed.

Lemma pre_smap {A B} (f : A -> B) k : forall (s : str A) l, pre k s = Some l -> pre k (smap f s) = Some (map f l).
Proof. revert k. apply pre_ind; [reflexivity|]. intros k x t l _ IH. cbn. rewrite IH. reflexivity. Qed.

Lemma pre_stry {A} h : forall k (s : str A) l, pre k s = Some l -> pre k (stry s h) = Some l.
Proof. apply pre_ind; [reflexivity|]. intros k x t l _ IH. cbn. rewrite IH. reflexivity. Qed.

Lemma pre_slabel {A} lb : forall k (s : str A) l, pre k s = Some l -> pre k (slabel lb s) = Some l.
Proof. apply pre_ind; [reflexivity|]. intros k x t l _ IH. cbn. rewrite IH. reflexivity. Qed.

(** a prefix of [s, r] depends on [r] only through the prefixes of [r] *)
Lemma pre_sapp_r {A} (s : str A) r1 r2 : (forall k l, pre k (r1 tt) = Some l -> pre k (r2 tt) = Some l) ->
  forall k l, pre k (sapp s r1) = Some l -> pre k (sapp s r2) = Some l.
Proof.
  intros Hr. induction s as [|y t IH|e| |]; intros k l H; cbn [sapp] in *; try exact H; [apply Hr, H|].
  destruct k as [|k]; [exact H|]. cbn [pre] in *.
  destruct (pre k (sapp (t tt) r1)) as [l'|] eqn:E; [|discriminate]. rewrite (IH tt k l' E). exact H.
Qed.

(** the first [k] outputs of [s | f] are settled by the items of [s] that produce them *)
Lemma pre_sbind {A B} (f : A -> str B) xs : forall k l r,
  pre k (sbind (of_list xs) f) = Some l -> pre k (sbind (sapp (of_list xs) r) f) = Some l.
Proof.
  induction xs as [|x xs IH]; intros k l r H.
  - cbn in H. destruct k; [exact H|discriminate].
  - cbn [of_list sapp sbind] in *. revert k l H. apply pre_sapp_r. intros k l. apply IH.
Qed.

Lemma first_pre {A} (s : str A) x : pre 1 s = Some [x] -> first_s s = sone x.
Proof. destruct s as [|y t|e| |]; cbn; try discriminate. intros H. injection H as <-. reflexivity. Qed.

(** [limit(k; s)] is exactly the first [k] outputs and then ends: it never depends on what follows *)
Lemma limit_pre {A} n (s : str A) l : pre n s = Some l -> in_isize (Z.of_nat n) = true ->
  limit (vint (Z.of_nat n)) (fun _ => s) = of_list l.
Proof.
  intros H Hn. pose proof (pre_length _ _ _ H) as L. destruct (pre_split _ _ _ H) as [r ->].
  rewrite limit_of_list by (try assumption; lia). rewrite Nat2Z.id, <- L, firstn_all. reflexivity.
Qed.

(** the consumer of the iterator (library, command line) that stops after [k] outputs has exactly them *)
Lemma take_pre {A} : forall k (s : str A) l, pre k s = Some l -> fst (take k s) = l.
Proof.
  apply pre_ind; [intros s; destruct s; reflexivity|].
  intros k x t l _ IH. cbn [take]. destruct (take k (t tt)) as [l2 f]. cbn in *. rewrite IH. reflexivity.
Qed.

(** [label $x | (..., break $x, rest)]: everything after the break is irrelevant *)
Lemma label_break {A} lb (xs : list A) r :
  slabel lb (sapp (of_list xs) (fun _ => sapp (SExn (XBreak lb)) r)) = of_list xs.
Proof.
  induction xs as [|x xs IH]; cbn [of_list sapp slabel]; [rewrite Nat.eqb_refl; reflexivity|apply SCons_ext, IH].
Qed.

(** [f // g]: the first truthy output of [f] is delivered whatever follows it *)
Definition alt {A} (p : A -> bool) (s : str A) (r : unit -> str A) : str A :=
  match sfilter p s with SNil => r tt | s' => s' end.

Lemma alt_first {A} (p : A -> bool) x t r : p x = true -> first_s (alt p (SCons x t) r) = sone x.
Proof. intros H. unfold alt. cbn [sfilter]. rewrite H. reflexivity. Qed.

(** ** rest-independence, spelled out: the remainder may be anything *)
Theorem prefix_consumers_ignore_rest {A} (xs : list A) (r1 r2 : unit -> str A) :
  let s1 := sapp (of_list xs) r1 in
  let s2 := sapp (of_list xs) r2 in
  (forall k, (k <= length xs)%nat -> pre k s1 = pre k s2)
  /\ (xs <> [] -> first_s s1 = first_s s2)
  /\ (forall n, (n <= length xs)%nat -> in_isize (Z.of_nat n) = true ->
        limit (vint (Z.of_nat n)) (fun _ => s1) = limit (vint (Z.of_nat n)) (fun _ => s2))
  /\ (forall k, (k <= length xs)%nat -> fst (take k s1) = fst (take k s2)).
Proof.
  cbv zeta. split; [|split; [|split]].
  - intros k Hk. rewrite !pre_of_list by exact Hk. reflexivity.
  - intros Hne. destruct xs as [|x xs]; [congruence|]. reflexivity.
  - intros n Hn Hi. rewrite !limit_of_list by (try assumption; lia). reflexivity.
  - intros k Hk. rewrite !(take_pre k _ (firstn k xs)) by (apply pre_of_list, Hk). reflexivity.
Qed.

(** non-vacuity: the remainder diverges or fails, the consumer has its result *)
Example lazy_ex :
  first_s (sapp (of_list [vint 1]) (fun _ => SBot)) = sone (vint 1)
  /\ limit (vint 2) (fun _ => sapp (of_list [vint 1; vint 2]) (fun _ => serr (EOther 0))) = of_list [vint 1; vint 2]
  /\ fst (take 1 (sapp (of_list [vint 1]) (fun _ => SExn (XHalt 1)))) = [vint 1].
Proof. repeat split. Qed.

(** ** the interpreter: the operand that the left-to-right order puts later is not needed for the earlier outputs *)
Section Interp.
  Variable d : val -> Bytes.bytes.
  Variable nr : nat -> Bytes.bytes -> list narg -> val -> option (str val).
  Variable defs : list Syntax.term.
  Notation run := (run d nr defs).

  (** [l, r]: the first outputs are those of [l], whatever [r] is *)
  Lemma run_comma_lazy n l r c v k xs :
    pre k (run n l c v) = Some xs -> pre k (run (S n) (Syntax.KComma l r) c v) = Some xs.
  Proof. apply pre_sapp. Qed.

  (** [l | r]: the outputs settled by the first items of [l] do not depend on the rest of [l] *)
  Lemma run_pipe_lazy n l r c v ys rest k xs :
    run n l c v = sapp (of_list ys) rest ->
    pre k (sbind (of_list ys) (fun y => run n r c y)) = Some xs ->
    pre k (run (S n) (Syntax.KPipe l None r) c v) = Some xs.
  Proof. intros Hl H. cbn [Run.run]. rewrite Hl. apply pre_sbind, H. Qed.

  (** [try f catch h], [label $x | f]: prefixes pass *)
  Lemma run_try_lazy n f h c v k xs :
    pre k (run n f c v) = Some xs -> pre k (run (S n) (Syntax.KTryCatch f h) c v) = Some xs.
  Proof. apply pre_stry. Qed.

  Lemma run_label_lazy n f c v k xs :
    pre k (run n f (cons_label c) v) = Some xs -> pre k (run (S n) (Syntax.KLabel f) c v) = Some xs.
  Proof. apply pre_slabel. Qed.

  (** [l // r]: a truthy first output of [l] is the first output, whatever follows in [l], and [r] is not run *)
  Lemma run_alt_lazy n l r c v x t :
    run n l c v = SCons x t -> as_bool x = true -> first_s (run (S n) (Syntax.KAlt l r) c v) = sone x.
  Proof. intros Hl Hx. cbn [Run.run]. rewrite Hl. cbn [sfilter]. rewrite Hx. reflexivity. Qed.
End Interp.
