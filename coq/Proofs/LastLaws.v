(** C11: `last(f)` and `nth(n; f)`.  `last(f)` yields the last output of a stream that ends normally, nothing for an empty
    one, and is ended by the first error, break or halt inside the stream (the items before it are not delivered): it is
    `[f] | if length == 0 then empty else .[-1] end`, construct for construct.  `nth(n; f)` is defined as
    `first(skip(n; f))` (defs.jq): the n-th output counted from 0, nothing when the stream is shorter, the first for n <= 0.
    `isempty`, `all` and `any` (defs.jq) look at the first deciding output only. *)
From Coq Require Import ZArith List Lia.
From JaqV Require Import Base.Stream Val.Num Val.Val Val.Err Core.Natives Proofs.StreamLaws.
Import ListNotations.
Local Open Scope Z_scope.

Lemma collect_of_list {A} (l : list A) : collect (of_list l) = (l, FEnd).
Proof. induction l as [|a l IH]; [reflexivity|]. cbn [of_list collect]. rewrite IH. reflexivity. Qed.

Lemma collect_sapp {A} (l : list A) r : collect (sapp (of_list l) r) = let '(l', f) := collect (r tt) in (l ++ l', f).
Proof.
  induction l as [|a l IH]; cbn [of_list sapp collect]; [destruct (collect (r tt)); reflexivity|].
  rewrite IH. destruct (collect (r tt)). reflexivity.
Qed.

Lemma last_go_collect {A} (s : str A) : forall cur,
  last_go cur s = collect_then s (fun ys => match rev ys with
                                            | y :: _ => sone y
                                            | [] => match cur with Some x => sone x | None => SNil end
                                            end).
Proof.
  unfold collect_then. induction s as [|x k IH|e| |]; intros cur; try reflexivity.
  cbn [last_go collect]. rewrite (IH tt (Some x)). destruct (collect (k tt)) as [ys t]. destruct t; try reflexivity.
  cbn [rev]. destruct (rev ys) as [|y r]; reflexivity.
Qed.

(** `last` of a stream is decided by how the stream ends: it is what collecting the stream into an array and taking the
    last element yields *)
Theorem last_is_collect_then_last {A} (s : str A) :
  last_s s = collect_then s (fun ys => match rev ys with y :: _ => sone y | [] => SNil end).
Proof. exact (last_go_collect s None). Qed.

Corollary last_of_outputs {A} (ys : list A) y : last_s (of_list (ys ++ [y])) = sone y.
Proof. rewrite last_is_collect_then_last. unfold collect_then. rewrite collect_of_list, rev_app_distr. reflexivity. Qed.

Corollary last_stops_at_the_first_error {A} (ys : list A) e (rest : unit -> str A) :
  last_s (sapp (of_list ys) (fun _ => sapp (SExn e) rest)) = SExn e.
Proof. rewrite last_is_collect_then_last. unfold collect_then. rewrite collect_sapp. reflexivity. Qed.

(** ** nth(n; f) = first(skip(n; f)) *)

Lemma skip_go_list {A} (ys : list A) : forall k, in_isize k = true -> 0 <= k ->
  skip_go (vint k) (of_list ys) = of_list (skipn (Z.to_nat k) ys).
Proof.
  induction ys as [|x r IH]; intros k Hk H0; (destruct (Z.eq_dec k 0) as [->|N]; [reflexivity|]);
    rewrite skip_go_pos by (try assumption; lia); cbn [of_list].
  - rewrite skipn_nil. reflexivity.
  - rewrite IH by (try apply in_isize_pred; try assumption; lia).
    replace (Z.to_nat k) with (S (Z.to_nat (k - 1))) by lia. reflexivity.
Qed.

Lemma first_skipn {A} (ys : list A) : forall n,
  first_s (of_list (skipn n ys)) = match nth_error ys n with Some y => sone y | None => SNil end.
Proof.
  induction ys as [|x r IH]; intros n; [destruct n; reflexivity|].
  destruct n as [|n]; [reflexivity|]. cbn [skipn nth_error]. apply IH.
Qed.

(** the n-th output counted from 0; nothing when the stream has no more than n outputs; the first output for n <= 0 *)
Theorem nth_def {A} (ys : list A) k : in_isize k = true ->
  first_s (skip (vint k) (of_list ys))
  = if k <=? 0 then first_s (of_list ys)
    else match nth_error ys (Z.to_nat k) with Some y => sone y | None => SNil end.
Proof.
  intros Hk. unfold skip. rewrite val_leb_int. destruct (Z.leb_spec k 0) as [L|L]; [reflexivity|].
  rewrite skip_go_list by (try assumption; lia). apply first_skipn.
Qed.

Example nth_examples :
  first_s (skip (vint 3) (of_list [vint 1; vint 2; vint 3])) = SNil
  /\ first_s (skip (vint 2) (of_list [vint 1; vint 2; vint 3])) = sone (vint 3)
  /\ first_s (skip (vint (-1)) (of_list [vint 7])) = sone (vint 7)
  /\ last_s (of_list [vint 1; vint 2]) = sone (vint 2)
  /\ last_s (SCons (vint 1) (fun _ => SExn (XErr (EOther 1)))) = SExn (XErr (EOther 1)).
Proof. repeat split. Qed.

(** ** isempty(g) = first((g | false), true) (its definition in defs.jq) *)
Definition isempty_s {A} (s : str A) : str val :=
  first_s (sapp (smap (fun _ => Bool false) s) (fun _ => sone (Bool true))).

(** true for a stream without outputs, false as soon as there is a first output - whatever follows it: an error, a halt, more
    outputs or no end at all -, and the stream's own failure when it fails before its first output *)
Theorem isempty_spec {A} (s : str A) :
  isempty_s s = match s with
                | SNil => sone (Bool true)
                | SCons _ _ => sone (Bool false)
                | SExn e => SExn e
                | SBot => SBot
                | SUnk => SUnk
                end.
Proof. destruct s; reflexivity. Qed.

(** all(g; cond) = isempty(g | cond and empty), any(g; cond) = isempty(g | cond or empty) | not (defs.jq), on the stream of
    the truth values of cond: `b and empty` yields false for a false b and nothing for a true one, `b or empty` yields true for
    a true b and nothing for a false one *)
Definition all_s (s : str bool) : str val := isempty_s (sbind s (fun b => if b then SNil else sone (Bool false))).
Definition any_s (s : str bool) : str val :=
  sbind (isempty_s (sbind s (fun b => if b then sone (Bool true) else SNil))) (fun v => sone (Bool (negb (match v with Bool true => true | _ => false end)))).

Lemma all_of_list bs : all_s (of_list bs) = sone (Bool (forallb (fun b => b) bs)).
Proof.
  unfold all_s. induction bs as [|b bs IH]; [reflexivity|]. cbn [of_list sbind forallb]. destruct b; cbn [sapp andb]; [exact IH|reflexivity].
Qed.

Lemma any_of_list bs : any_s (of_list bs) = sone (Bool (existsb (fun b => b) bs)).
Proof.
  unfold any_s. induction bs as [|b bs IH]; [reflexivity|]. cbn [of_list sbind existsb]. destruct b; cbn [sapp orb]; [reflexivity|exact IH].
Qed.

(** they stop at the first deciding value: what follows it - an error, a halt, no end - is not looked at *)
Lemma all_stops_at_the_first_false n (rest : unit -> str bool) :
  all_s (sapp (of_list (repeat true n ++ [false])) rest) = sone (Bool false).
Proof. unfold all_s. induction n as [|n IH]; [reflexivity|]. cbn [repeat app of_list sapp sbind]. exact IH. Qed.

Lemma any_stops_at_the_first_true n (rest : unit -> str bool) :
  any_s (sapp (of_list (repeat false n ++ [true])) rest) = sone (Bool true).
Proof. unfold any_s. induction n as [|n IH]; [reflexivity|]. cbn [repeat app of_list sapp sbind]. exact IH. Qed.
