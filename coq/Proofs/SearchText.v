(** C12/C13: `indices` on text strings counts characters: the k-th character position is listed exactly when the needle's
    bytes stand at the byte offset of that character ([char_starts], the offsets `.[k:]` uses), increasing, each once. *)
From Coq Require Import List ZArith Lia Sorting.Sorted.
From JaqV Require Import Base.Bytes Val.Val Val.Err Val.Index Std.Natives Proofs.SafeLaws Proofs.SearchLaws.
Import ListNotations.
Local Open Scope Z_scope.

Lemma char_starts_sorted b : StronglySorted Z.lt (char_starts b).
Proof. rewrite char_starts_eq. apply starts_go_sorted, chunks_f_nonempty. Qed.

(** the needle stands at byte offset [st] *)
Definition hit (x y : bytes) (st : Z) : bool :=
  (st + Z.of_nat (length y) <=? Z.of_nat (length x)) && bytes_eqb (slice x st (Z.of_nat (length y))) y.

(** the local [fix] of [str_indices], written out so that it can be named (as [starts_go] in SafeLaws) *)
Section SGO.
  Variables x y : bytes.
  Fixpoint sgo (starts : list Z) (idx : Z) : list Z :=
    match starts with
    | [] => []
    | st :: r =>
        if st + Z.of_nat (length y) <=? Z.of_nat (length x) then
          (if bytes_eqb (slice x st (Z.of_nat (length y))) y then [idx] else []) ++ sgo r (idx + 1)
        else []
    end.
End SGO.

Lemma str_indices_sgo x y : str_indices x y = sgo x y (char_starts x) 0.
Proof. reflexivity. Qed.

Lemma sgo_spec x y : forall starts idx, StronglySorted Z.lt starts ->
  sgo x y starts idx = zpos (fun k => hit x y (nth k starts 0)) (length starts) idx.
Proof.
  induction starts as [|st r IH]; intros idx Hs; [reflexivity|].
  inversion Hs as [|? ? Hr Hall]; subst.
  cbn [sgo length]. rewrite zpos_S. cbn [nth]. unfold hit at 1.
  destruct (Z.leb_spec (st + Z.of_nat (length y)) (Z.of_nat (length x))) as [Hin|Hout]; cbn [andb].
  - rewrite IH by exact Hr. reflexivity.
  - (* every later character starts further right: nothing more can match *)
    unfold zpos. rewrite filter_none; [reflexivity|]. intros k Hk. apply in_seq in Hk. unfold hit.
    assert (Hn : In (nth k r 0) r) by (apply nth_In; lia).
    rewrite Forall_forall in Hall. specialize (Hall _ Hn).
    destruct (Z.leb_spec (nth k r 0 + Z.of_nat (length y)) (Z.of_nat (length x))); [lia|reflexivity].
Qed.

(** `indices` on text: the character positions (counted from 0 in the order of [char_starts]) at whose byte offset the needle stands *)
Theorem indices_text x y : y <> [] ->
  indices (TStr x) (TStr y)
  = Ok (Arr (map vint (map Z.of_nat (filter (fun k => hit x y (nth k (char_starts x) 0)) (seq 0 (length (char_starts x))))))).
Proof.
  intros Hy. destruct y as [|b y]; [congruence|]. cbn [indices]. rewrite str_indices_sgo, sgo_spec by apply char_starts_sorted.
  reflexivity.
Qed.

Example indices_text_chars :   (* "aéa" searched for "a": characters 0 and 2, although the second "a" is byte 3 *)
  indices (TStr (of_ascii [97; 195; 169; 97])) (TStr (of_ascii [97])) = Ok (Arr [vint 0; vint 2]).
Proof. vm_compute. reflexivity. Qed.
