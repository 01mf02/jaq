(** `--in-place` over several files: at every moment every file holds its old bytes or its complete new contents;
    the files before a failing one keep their new contents, the failing one and the later ones their old;
    no temporary file is left behind. *)
From Coq Require Import ZArith List.
From JaqV Require Import Base.Bytes Cli.InPlace Proofs.InPlaceLaws.
Import ListNotations.

Lemma all_ops_from (js : list job) o : In o (all_ops js) -> exists j, In j js /\ In o (ops_of j).
Proof.
  induction js as [|j r IH]; cbn [all_ops]; intros H; [destruct H|]. apply in_app_or in H as [H|H].
  - exists j. split; [left; reflexivity | exact H].
  - destruct (j_ok j); [|destruct H]. destruct (IH H) as [j' [Hin Ho]]. exists j'. split; [right; exact Hin | exact Ho].
Qed.

Lemma all_ops_frame (js : list job) k q d : (forall j, In j js -> q <> j_tmp j /\ q <> j_path j) ->
  lookup (run_ops d (firstn k (all_ops js))) q = lookup d q.
Proof.
  intros H. apply run_ops_frame. intros o Ho Hq.
  destruct (all_ops_from _ _ Ho) as [j [Hj Hoj]]. destruct (H j Hj) as [Ht Hp].
  destruct (ops_names j o q Hoj Hq); contradiction.
Qed.

(** the files are distinct, and no temporary name is the name of a file to process *)
Definition wf (js : list job) : Prop :=
  NoDup (map j_path js) /\ (forall j j', In j js -> In j' js -> j_tmp j <> j_path j').

Lemma wf_tail j r : wf (j :: r) -> wf r.
Proof. intros [Hn Ht]. split; [inversion Hn; assumption | intros a b Ha Hb; apply Ht; right; assumption]. Qed.

Lemma wf_head j r : wf (j :: r) -> j_tmp j <> j_path j /\ forall j', In j' r -> j_path j <> j_tmp j' /\ j_path j <> j_path j' /\ j_path j' <> j_tmp j.
Proof.
  intros [Hn Ht]. split; [apply Ht; left; reflexivity|]. intros j' Hj'. repeat split.
  - intros E. apply (Ht j' j); [right; exact Hj' | left; reflexivity | congruence].
  - intros E. cbn in Hn. inversion Hn as [|? ? Hnot _]; subst. apply Hnot. rewrite E. apply in_map. exact Hj'.
  - intros E. apply (Ht j j'); [left; reflexivity | right; exact Hj' | congruence].
Qed.

(** at every moment - after any prefix of the operations of the whole run, e.g. when the process is killed - every file
    holds its original bytes or, only when its own run succeeded, exactly its complete output *)
Theorem atomic_many : forall (js : list job) (d : dir) k, wf js ->
  (forall j, In j js -> data_at d (j_path j) <> None) ->
  let d' := run_ops d (firstn k (all_ops js)) in
  forall j, In j js ->
    data_at d' (j_path j) = data_at d (j_path j) \/ (j_ok j = true /\ data_at d' (j_path j) = Some (new_data j)).
Proof.
  induction js as [|j r IH]; intros d k Hwf Hex; cbn zeta; intros j0 Hj0; [destruct Hj0|].
  destruct (wf_head _ _ Hwf) as [Hne Hoth]. cbn [all_ops]. rewrite firstn_app, run_ops_app.
  set (d1 := run_ops d (firstn k (ops_of j))).
  set (k2 := (k - length (ops_of j))%nat).
  set (rest := if j_ok j then all_ops r else []).
  (* the operations of the later files do not touch the first one *)
  assert (Hrest_j : lookup (run_ops d1 (firstn k2 rest)) (j_path j) = lookup d1 (j_path j)).
  { unfold rest. destruct (j_ok j); [|rewrite firstn_nil; reflexivity].
    apply all_ops_frame. intros j' Hj'. destruct (Hoth j' Hj') as [A [B _]]. split; assumption. }
  destruct Hj0 as [<-|Hr].
  - (* the first file *)
    unfold data_at. rewrite Hrest_j. fold (data_at d1 (j_path j)). fold (data_at d (j_path j)).
    destruct (data_at d (j_path j)) as [old|] eqn:Eold; [|exfalso; apply (Hex j); [left; reflexivity | exact Eold]].
    exact (atomic_one j d old k Hne Eold).
  - (* a later file: untouched by the first one's operations *)
    assert (Hd1 : forall q, q <> j_tmp j -> q <> j_path j -> lookup d1 q = lookup d q).
    { intros q Hq1 Hq2. apply ops_frame_prefix; assumption. }
    destruct (Hoth j0 Hr) as [_ [Hpp Hpt]].
    assert (Hsame : data_at d1 (j_path j0) = data_at d (j_path j0)).
    { unfold data_at. rewrite Hd1; [reflexivity | exact Hpt | congruence]. }
    unfold rest. destruct (j_ok j).
    + rewrite <- Hsame. apply (IH d1 k2 (wf_tail _ _ Hwf)); [|exact Hr].
      intros j' Hj'. destruct (Hoth j' Hj') as [_ [Hpp' Hpt']].
      unfold data_at. rewrite Hd1; [apply (Hex j'); right; exact Hj' | exact Hpt' | congruence].
    + rewrite firstn_nil. left. exact Hsame.
Qed.

(** the state after the whole run, file by file: the files up to the first failing one hold their outputs,
    the failing one and all later ones their old contents *)
Theorem outcome_many : forall (pre post : list job) (d : dir), wf (pre ++ post) ->
  (forall j, In j pre -> j_ok j = true) ->
  (match post with bad :: _ => j_ok bad = false | [] => True end) ->
  let d' := run_ops d (all_ops (pre ++ post)) in
  (forall j, In j pre -> data_at d' (j_path j) = Some (new_data j))
  /\ (forall j, In j post -> lookup d' (j_path j) = lookup d (j_path j)).
Proof.
  induction pre as [|j r IH]; intros post d Hwf Hok Hbad; cbn zeta.
  - split; [intros j []|]. cbn [app] in *. destruct post as [|bad post]; [intros j []|].
    cbn [all_ops]. rewrite Hbad, app_nil_r. intros j Hj.
    destruct (wf_head _ _ Hwf) as [Hne Hoth].
    destruct Hj as [<-|Hj]; [exact (proj1 (failure_state bad d Hne Hbad))|].
    destruct (Hoth j Hj) as [_ [Hpp Hpt]]. apply in_place_frame; congruence.
  - cbn [app] in Hwf. destruct (wf_head _ _ Hwf) as [Hne Hoth].
    cbn [app all_ops]. rewrite (Hok j (or_introl eq_refl)), run_ops_app.
    set (d1 := run_ops d (ops_of j)).
    destruct (IH post d1 (wf_tail _ _ Hwf) (fun x Hx => Hok x (or_intror Hx)) Hbad) as [Hpre Hpost]. split.
    + intros j0 [<-|Hj0]; [|apply Hpre, Hj0].
      unfold data_at. rewrite <- (firstn_all (all_ops (r ++ post))), all_ops_frame.
      * unfold d1. rewrite (proj1 (run_job j d Hne)), (Hok j (or_introl eq_refl)). reflexivity.
      * intros j' Hj'. destruct (Hoth j' Hj') as [A [B _]]. split; assumption.
    + intros j0 Hj0. rewrite (Hpost j0 Hj0).
      destruct (Hoth j0 (in_or_app _ _ _ (or_intror Hj0))) as [_ [Hpp Hpt]]. apply in_place_frame; congruence.
Qed.

(** no temporary file of the run is left behind, however far the run got *)
Theorem no_tmp_left : forall (js : list job) (d : dir) t, wf js ->
  (forall j, In j js -> t <> j_path j) -> lookup d t = None -> lookup (run_ops d (all_ops js)) t = None.
Proof.
  induction js as [|j r IH]; intros d t Hwf Hp Hd; [exact Hd|].
  destruct (wf_head _ _ Hwf) as [Hne _]. cbn [all_ops]. rewrite run_ops_app.
  assert (H1 : lookup (run_ops d (ops_of j)) t = None).
  { destruct (Nat.eq_dec t (j_tmp j)) as [->|Hnt]; [exact (proj2 (run_job j d Hne))|].
    rewrite in_place_frame; [exact Hd | apply Hp; left; reflexivity | exact Hnt]. }
  destruct (j_ok j); [|exact H1].
  apply IH; [exact (wf_tail _ _ Hwf) | intros j' Hj'; apply Hp; right; exact Hj' | exact H1].
Qed.

Theorem every_tmp_removed : forall (js : list job) (d : dir), wf js ->
  (forall j, In j js -> lookup d (j_tmp j) = None) ->
  forall j, In j js -> lookup (run_ops d (all_ops js)) (j_tmp j) = None.
Proof.
  intros js d Hwf Hd j Hj. apply no_tmp_left; [exact Hwf | | apply Hd, Hj].
  intros j' Hj'. destruct Hwf as [_ Ht]. apply Ht; assumption.
Qed.

(** non-vacuity: three files, the second fails *)
Example three_files :
  let j n ok := {| j_path := n; j_tmp := 100 + n; j_chunks := [of_ascii [65%Z]; of_ascii [66%Z]]; j_ok := ok; j_mode := 420%Z |} in
  let f z := {| f_data := of_ascii [z]; f_mode := 420%Z |} in
  let d := [(1, f 1%Z); (2, f 2%Z); (3, f 3%Z)] in
  let d' := run_ops d (all_ops [j 1 true; j 2 false; j 3 true]) in
  (data_at d' 1, data_at d' 2, data_at d' 3, lookup d' 101, lookup d' 102)
  = (Some (of_ascii [65; 66]%Z), Some (of_ascii [2%Z]), Some (of_ascii [3%Z]), None, None).
Proof. vm_compute. reflexivity. Qed.
