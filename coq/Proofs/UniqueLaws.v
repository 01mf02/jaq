(** C12: `unique_by(f)` is defined as `[group_by(f)[] | .[0]]` (defs.jq): the first element of every group.  The groups are
    the maximal runs of equal keys of the stably sorted keyed list (GroupLaws), so their first elements are exactly the
    elements of that list whose key differs from the key of the run before - the first of each run, in sorted order. *)
From Coq Require Import List.
From JaqV Require Import Base.Stream Val.Val Val.Index Std.Natives Proofs.GroupLaws.
Import ListNotations.

(** the elements that start a run: [prev] is the key of the run we are in *)
Fixpoint firsts (prev : option (list val)) (l : list (list val * val)) : list (list val * val) :=
  match l with
  | [] => []
  | (k, x) :: r =>
      match prev with
      | Some p => if list_eqb_val p k then firsts (Some p) r else (k, x) :: firsts (Some k) r
      | None => (k, x) :: firsts (Some k) r
      end
  end.

Definition head_of (g : list (list val * val)) : list (list val * val) := match g with [] => [] | kv :: _ => [kv] end.

Lemma firsts_skips_run k rest : forall m, tail_eq k rest -> firsts (Some k) (rest ++ m) = firsts (Some k) m.
Proof.
  induction rest as [|[k' x'] rest IH]; intros m H; [reflexivity|].
  inversion H as [|? ? Hk Hr]; subst. cbn [fst] in Hk. cbn [app firsts]. rewrite Hk. apply IH. exact Hr.
Qed.

Theorem heads_are_the_firsts gs : maximal gs -> flat_map head_of gs = firsts None (concat gs).
Proof.
  induction 1 as [k x rest Ht|k x rest k' x' rest' gs Ht Hne Hm IH].
  - cbn [flat_map head_of concat app firsts]. rewrite app_nil_r. rewrite <- (app_nil_r rest), firsts_skips_run by exact Ht. reflexivity.
  - cbn [flat_map head_of concat app firsts] in *. rewrite firsts_skips_run by exact Ht.
    cbn [app firsts]. rewrite Hne. f_equal. exact IH.
Qed.

Corollary unique_by_keeps_the_first_of_each_run f xs kx : keyed f xs = (kx, FEnd) ->
  let sorted := sort_by (fun a b => keys_cmp (fst a) (fst b)) kx in
  exists groups, group_by_f f xs = sone (Arr (map (fun g => Arr (map snd g)) groups))
    /\ map snd (flat_map head_of groups) = map snd (firsts None sorted).
Proof.
  intros K. destruct (group_by_spec f xs kx K) as (groups & E & C & M & Z). cbv zeta in *.
  exists groups. split; [exact E|]. destruct (sort_by _ kx) as [|kv r] eqn:S.
  - rewrite (Z eq_refl). reflexivity.
  - rewrite <- C. f_equal. apply heads_are_the_firsts. apply M. discriminate.
Qed.
