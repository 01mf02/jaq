(** Bytes as numbers ([zb] and [bz] are inverse on 0..255), decimal digits, and printed integers: printing an integer of any
    size and reading the digits back gives the integer. *)
From Coq Require Import ZArith Bool List Lia.
From JaqV Require Import Base.Bytes Val.Num Json.Write.
Import ListNotations.
Local Open Scope Z_scope.

Lemma bz_zb z : 0 <= z < 256 -> bz (zb z) = z.
Proof.
  intros H. unfold bz, zb. destruct (Byte.of_N (Z.to_N z)) as [b|] eqn:E.
  - apply Byte.to_of_N in E. rewrite E. lia.
  - apply Byte.of_N_None_iff in E. lia.
Qed.

Lemma zb_eq z b : z = bz b -> zb z = b.
Proof. intros ->. apply zb_bz. Qed.

Lemma is_digit_range d : is_digit d = true <-> 48 <= bz d <= 57.
Proof. unfold is_digit. rewrite andb_true_iff, !Z.leb_le. reflexivity. Qed.

Lemma digit_char m : 0 <= m < 10 -> is_digit (zb (48 + m)) = true /\ digit_val (zb (48 + m)) = m.
Proof.
  intros H. unfold is_digit, digit_val. rewrite bz_zb by lia. split; [|lia].
  apply andb_true_intro; split; apply Z.leb_le; lia.
Qed.

Lemma dv_app ds : forall a y, digits_val_acc a (ds ++ y) = digits_val_acc (digits_val_acc a ds) y.
Proof. induction ds as [|d ds IH]; intros a y; [reflexivity|]. cbn [app digits_val_acc]. apply IH. Qed.

Lemma all_digits_app x y : all_digits (x ++ y) = all_digits x && all_digits y.
Proof. unfold all_digits. apply forallb_app. Qed.

(** the digits produced for [z >= 0]: non-empty, all digits, value [z], no leading zero unless [z = 0] *)
Lemma pdf_spec fuel : forall z acc, 0 <= z < 10 ^ Z.of_nat fuel -> (0 < fuel)%nat ->
  exists ds, pos_digits_fuel fuel z acc = ds ++ acc /\ ds <> [] /\ all_digits ds = true /\ digits_val ds = z
             /\ (0 < z -> match ds with d :: _ => 49 <= bz d <= 57 | [] => False end).
Proof.
  induction fuel as [|fuel IH]; intros z acc Hz Hf; [lia|]. cbn [pos_digits_fuel].
  destruct (Z.ltb_spec z 10) as [Hlt|Hge].
  - exists [zb (48 + z)]. destruct (digit_char z ltac:(lia)) as [D V].
    split; [reflexivity|]. split; [discriminate|]. split; [unfold all_digits; cbn [forallb]; rewrite D; reflexivity|].
    split; [unfold digits_val; cbn [digits_val_acc]; lia|]. intros Hp. rewrite bz_zb by lia. lia.
  - assert (Hf' : (0 < fuel)%nat).
    { destruct fuel; [|lia]. cbn in Hz. lia. }
    assert (Hq : 0 <= z / 10 < 10 ^ Z.of_nat fuel).
    { split; [apply Z.div_pos; lia|]. apply Z.div_lt_upper_bound; [lia|].
      rewrite Nat2Z.inj_succ, Z.pow_succ_r in Hz by lia. lia. }
    destruct (IH (z / 10) (zb (48 + z mod 10) :: acc) Hq Hf') as (ds & E & Hne & Hd & Hv & Hh).
    exists (ds ++ [zb (48 + z mod 10)]). rewrite E, <- app_assoc. cbn [app].
    pose proof (Z.mod_pos_bound z 10 ltac:(lia)) as Hm. destruct (digit_char (z mod 10) Hm) as [D V].
    split; [reflexivity|]. repeat split.
    + destruct ds; discriminate.
    + rewrite all_digits_app, Hd. unfold all_digits. cbn [forallb]. rewrite D. reflexivity.
    + unfold digits_val in *. rewrite dv_app, Hv. cbn [digits_val_acc]. rewrite V. pose proof (Z.div_mod z 10 ltac:(lia)). lia.
    + intros _. assert (0 < z / 10) by (apply Z.div_str_pos; lia). specialize (Hh H).
      destruct ds as [|d ds]; [contradiction|]. exact Hh.
Qed.

Lemma nat_digits_spec z : 0 <= z ->
  nat_digits z <> [] /\ all_digits (nat_digits z) = true /\ digits_val (nat_digits z) = z
  /\ (0 < z -> match nat_digits z with d :: _ => 49 <= bz d <= 57 | [] => False end).
Proof.
  intros Hz. unfold nat_digits.
  assert (B : 0 <= z < 10 ^ Z.of_nat (S (Z.to_nat (Z.log2 z)))).
  { split; [lia|]. destruct (Z.eq_dec z 0) as [->|N]; [cbn; lia|].
    pose proof (Z.log2_spec z ltac:(lia)) as [_ H]. pose proof (Z.log2_nonneg z).
    rewrite Nat2Z.inj_succ, Z2Nat.id by lia.
    eapply Z.lt_le_trans; [exact H|]. apply Z.pow_le_mono_l. lia. }
  destruct (pdf_spec _ z [] B ltac:(lia)) as (ds & E & Hne & Hd & Hv & Hh). rewrite E, app_nil_r. auto.
Qed.

Lemma strip_sign_digits ds : all_digits ds = true -> ds <> [] -> strip_sign ds = (false, ds).
Proof.
  destruct ds as [|d r]; [congruence|]. intros H _. cbn in H. apply andb_prop in H as [H _].
  unfold is_digit in H. apply andb_prop in H as [A B]. apply Z.leb_le in A, B. cbn [strip_sign].
  destruct (Z.eqb_spec (bz d) 45); [lia|]. destruct (Z.eqb_spec (bz d) 43); [lia|]. reflexivity.
Qed.

(** printing an integer and reading the literal back *)
Theorem parse_int_dec_print z : parse_int_dec (Z_to_dec z) = Some z.
Proof.
  unfold Z_to_dec, parse_int_dec. destruct (Z.ltb_spec z 0) as [Hn|Hp].
  - destruct (nat_digits_spec (- z) ltac:(lia)) as (Hne & Hd & Hv & _).
    cbn [strip_sign]. change (bz x2d =? 45) with true. cbn iota.
    destruct (nat_digits (- z)) as [|d r] eqn:E; [congruence|]. rewrite Hd, Hv. f_equal. lia.
  - destruct (nat_digits_spec z Hp) as (Hne & Hd & Hv & _).
    rewrite (strip_sign_digits _ Hd Hne). destruct (nat_digits z) as [|d r] eqn:E; [congruence|]. rewrite Hd, Hv. reflexivity.
Qed.

(** an integer of any size, in either representation, survives [Display] then [Num::from_str] *)
Theorem from_str_print z : from_str (Z_to_dec z) = int_or_big z.
Proof. unfold from_str. rewrite parse_int_dec_print. reflexivity. Qed.

(** a printed integer starts with a digit or the sign *)
Lemma dec_first z : exists c r, Z_to_dec z = c :: r /\ (is_digit c = true \/ bz c = 45).
Proof.
  unfold Z_to_dec. destruct (Z.ltb_spec z 0) as [|Hp]; [eexists _, _; split; [reflexivity|right; reflexivity]|].
  destruct (nat_digits_spec z Hp) as (Hne & Hd & _). destruct (nat_digits z) as [|d ds]; [congruence|].
  apply andb_prop in Hd as [Hd _]. exists d, ds. auto.
Qed.

(** integers of either representation are printed as their decimal digits *)
Lemma show_int_or_big z : show_num (int_or_big z) = Z_to_dec z.
Proof. unfold int_or_big. destruct (in_isize z); reflexivity. Qed.
