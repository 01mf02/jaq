(** getpath (path p) = p: every pair (value, path) that the path evaluator yields addresses its value - indexing the
    input along the path gives exactly that value. *)
From Coq Require Import ZArith Bool List Lia.
From JaqV Require Import Base.Bytes Base.Stream Val.Num Val.Val Val.Err Val.Index Core.Natives Core.Run Proofs.ValInd.
Import ListNotations.
Local Open Scope Z_scope.

(** ** a property of every item of a stream *)
Fixpoint sforall {A} (P : A -> Prop) (s : str A) : Prop :=
  match s with SCons x k => P x /\ sforall P (k tt) | _ => True end.

Lemma sforall_sapp {A} (P : A -> Prop) s r : sforall P s -> (sforall P (r tt)) -> sforall P (sapp s r).
Proof. induction s as [|x k IH|e| |]; cbn; intros H1 H2; auto. destruct H1. split; auto. Qed.

Lemma sforall_sbind {A B} (P : A -> Prop) (Q : B -> Prop) s (f : A -> str B) :
  sforall P s -> (forall a, P a -> sforall Q (f a)) -> sforall Q (sbind s f).
Proof.
  induction s as [|x k IH|e| |]; cbn; intros H1 H2; auto. destruct H1 as [Hx Hk].
  apply sforall_sapp; [apply H2; exact Hx | apply IH; assumption].
Qed.

Lemma sforall_true {A} (s : str A) : sforall (fun _ => True) s.
Proof. induction s as [|x k IH|e| |]; cbn; auto. Qed.

Lemma sforall_sbind_all {A B} (Q : B -> Prop) s (f : A -> str B) : (forall a, sforall Q (f a)) -> sforall Q (sbind s f).
Proof. intros H. apply (sforall_sbind (fun _ => True)); [apply sforall_true|auto]. Qed.

Lemma sforall_smap {A B} (P : B -> Prop) (h : A -> B) (s : str A) : sforall (fun x => P (h x)) s -> sforall P (smap h s).
Proof. induction s as [|x k IH|e| |]; cbn; auto. intros [H1 H2]. split; [exact H1|apply IH; exact H2]. Qed.

Lemma sforall_impl {A} (P Q : A -> Prop) s : (forall a, P a -> Q a) -> sforall P s -> sforall Q s.
Proof. intros H. induction s as [|x k IH|e| |]; cbn; auto. intros [Hx Hk]. split; auto. Qed.

Lemma sforall_of_list {A} (P : A -> Prop) l : Forall P l -> sforall P (of_list l).
Proof. induction 1; cbn; auto. Qed.

Lemma sforall_of_res {A} (P : A -> Prop) (r : res A) : (forall a, r = Ok a -> P a) -> sforall P (of_res r).
Proof. destruct r; cbn; auto. Qed.

Lemma sforall_sopt {A} (P : A -> Prop) opt s : sforall P s -> sforall P (sopt opt s).
Proof.
  unfold sopt. destruct opt; [|auto]. induction s as [|x k IH|e| |]; cbn; auto.
  - intros [Hx Hk]. split; auto.
  - destruct e; cbn; auto.
Qed.

(** ** values whose objects can be addressed by their own keys (IndexMap's invariant: keys are unique and equal to
    themselves - a NaN key is the excluded case) *)
Definition keys_ok (o : obj) : Prop := forall k x, In (k, x) o -> get o k = Some x.

Inductive good : val -> Prop :=
| g_null : good Null
| g_bool b : good (Bool b)
| g_num n : good (Num n)
| g_bstr b : good (BStr b)
| g_tstr b : good (TStr b)
| g_arr a : Forall good a -> good (Arr a)
| g_obj o : keys_ok o -> Forall (fun kv => good (snd kv)) o -> good (Obj o).

Definition addressed (v : val) (pa : vpath) (xp : val * vpath) : Prop :=
  match snd xp with k :: pa' => pa' = pa /\ vindex v k = Ok (fst xp) | [] => False end.

Lemma enum_nth {A} (l : list A) : forall i0 pre, Z.of_nat (length pre) = i0 ->
  Forall (fun p => nth_error (pre ++ l) (Z.to_nat (fst p)) = Some (snd p) /\ 0 <= fst p < Z.of_nat (length (pre ++ l)))
         (enumerate_from i0 l).
Proof.
  induction l as [|x l IH]; intros i0 pre Hp; cbn [enumerate_from]; [constructor|]. constructor.
  - cbn [fst snd]. subst i0. rewrite Nat2Z.id. split.
    + rewrite nth_error_app2 by lia. rewrite Nat.sub_diag. reflexivity.
    + rewrite app_length. cbn [length]. lia.
  - specialize (IH (i0 + 1) (pre ++ [x])). rewrite <- app_assoc in IH. cbn [app] in IH. apply IH.
    rewrite app_length. cbn [length]. lia.
Qed.

Lemma vindex_arr a i x : 0 <= i < Z.of_nat (length a) -> nth_error a (Z.to_nat i) = Some x -> vindex (Arr a) (vint i) = Ok x.
Proof.
  intros Hi Hn. unfold vindex, vint, index_opt, as_pos_usize. destruct (Z.leb_spec 0 i); [|lia].
  rewrite Z.abs_eq by lia. unfold abs_index, wrap. destruct (Z.ltb_spec i (Z.of_nat (length a))); [|lia]. rewrite Hn. reflexivity.
Qed.

Lemma range_val_keys f u : exists o, range_val f u = Obj o /\ get o key_start = f /\ get o key_end = u.
Proof. destruct f, u; eexists; repeat split. Qed.

Lemma find_hashed_in eqv o k x : find_hashed eqv o k = Some x -> exists k', In (k', x) o.
Proof.
  induction o as [|[k' x'] r IH]; cbn [find_hashed]; [discriminate|].
  destruct (hws_eqb (hash_writes k) (hash_writes k') && eqv k k').
  - intros H. injection H as <-. exists k'. left. reflexivity.
  - intros H. destruct (IH H) as (k2 & Hin). exists k2. right. exact Hin.
Qed.

Lemma get_in o k x : get o k = Some x -> exists k', In (k', x) o.
Proof.
  unfold get, get_with. destruct o as [|[k1 x1] [|kv r]]; [discriminate| |].
  - destruct (val_eqb k k1); [|discriminate]. intros H. injection H as <-. exists k1. left. reflexivity.
  - apply find_hashed_in.
Qed.

Lemma Forall_slice {A} (P : A -> Prop) l s t : Forall P l -> Forall P (slice l s t).
Proof.
  intros H. unfold slice. rewrite <- (firstn_skipn (Z.to_nat s) l) in H. apply Forall_app in H as [_ H].
  rewrite <- (firstn_skipn (Z.to_nat t) (skipn (Z.to_nat s) l)) in H. apply Forall_app in H as [H _]. exact H.
Qed.

Lemma vrange_good v r x : good v -> vrange v r = Ok x -> good x.
Proof.
  intros Hg. unfold vrange. destruct v; try discriminate; destruct (range_int r) as [ri|e]; cbn [rmap]; try discriminate.
  - destruct (skip_take ri _). intros H. injection H as <-. constructor.
  - destruct (skip_take_chars ri _). intros H. injection H as <-. constructor.
  - destruct (skip_take ri _) as [s t]. intros H. injection H as <-. inversion Hg; subst. constructor. apply Forall_slice. assumption.
Qed.

Lemma vrange_some_good v r y : good v -> rmap Some (vrange v r) = Ok (Some y) -> good y.
Proof. intros Hg E. destruct (vrange v r) eqn:Er; [|discriminate E]. injection E as <-. eapply vrange_good; [exact Hg|exact Er]. Qed.

Lemma good_vusize z : good (vusize z). Proof. constructor. Qed.

Lemma index_opt_good v i y : good v -> index_opt v i = Ok (Some y) -> good y.
Proof.
  intros Hg E. unfold index_opt in E.
  destruct v as [|b|n|b|b|a|o]; try discriminate E.
  - (* byte string *) destruct i as [|bi|ni|bb|bt|ba|bo]; try discriminate E.
    + destruct ni; try discriminate E;
        (destruct (as_pos_usize _) as [p|]; [|discriminate E]; destruct (abs_index p _) as [k|]; [|discriminate E];
         destruct (nth_error b (Z.to_nat k)); [|discriminate E]; injection E as <-; apply good_vusize).
    + eapply vrange_some_good; [exact Hg|exact E].
  - (* text string *) destruct i as [|bi|ni|bb|bt|ba|bo]; try discriminate E.
    eapply vrange_some_good; [exact Hg|exact E].
  - (* array *) inversion Hg as [| | | | |a' Ha|]; subst. destruct i as [|bi|ni|bb|bt|ba|bo]; try discriminate E.
    + destruct ni; try discriminate E;
        (destruct (as_pos_usize _) as [p|]; [|discriminate E]; destruct (abs_index p _) as [k|]; [|discriminate E];
         injection E as E; rewrite Forall_forall in Ha; apply Ha; eapply nth_error_In; exact E).
    + destruct ba; injection E as <-; constructor; [constructor|]. apply Forall_forall. intros z Hz.
      apply in_map_iff in Hz as (w & <- & _). apply good_vusize.
    + eapply vrange_some_good; [exact Hg|exact E].
  - (* object *) inversion Hg as [| | | | | |o' Hk Ho]; subst. injection E as E. destruct (get_in _ _ _ E) as (k' & Hin).
    rewrite Forall_forall in Ho. apply (Ho (k', y) Hin).
Qed.

Lemma vindex_good v i x : good v -> vindex v i = Ok x -> good x.
Proof.
  intros Hg. unfold vindex. destruct (index_opt v i) as [o|e] eqn:E; cbn [rmap]; [|discriminate].
  intros H. injection H as <-. destruct o as [y|]; [|constructor]. eapply index_opt_good; eassumption.
Qed.

Lemma vindex_range_key v f u : match v with BStr _ | TStr _ | Arr _ => True | _ => False end ->
  vindex v (range_val f u) = vrange v (f, u).
Proof.
  intros Hv. destruct (range_val_keys f u) as (o & -> & G1 & G2). unfold vindex.
  destruct v; try contradiction; unfold index_opt; rewrite G1, G2; destruct (vrange _ _); reflexivity.
Qed.

Lemma range_addressed v f u pa : good v ->
  sforall (fun xp => addressed v pa xp /\ good (fst xp)) (of_res (rmap (fun x => (x, range_val f u :: pa)) (vrange v (f, u)))).
Proof.
  intros Hg. apply sforall_of_res. intros [x q] H. destruct (vrange v (f, u)) as [y|e] eqn:E; cbn [rmap] in H; [|discriminate].
  injection H as <- <-. split; [|eapply vrange_good; eassumption]. split; [reflexivity|]. cbn [fst].
  rewrite vindex_range_key; [exact E|]. unfold vrange in E. destruct v; try discriminate E; exact I.
Qed.

(** every pair that one path component yields addresses its value in the input *)
Theorem part_addressed p v pa : good v ->
  sforall (fun xp => addressed v pa xp /\ good (fst xp)) (part_paths p (v, pa)).
Proof.
  intros Hg. unfold part_paths. destruct p as [i|f u].
  - (* .[i] *) apply sforall_of_res. intros [x q] H. destruct (vindex v i) as [y|e] eqn:E; cbn [rmap] in H; [|discriminate].
    injection H as <- <-. split; [split; [reflexivity|exact E]|eapply vindex_good; eassumption].
  - destruct f as [a|], u as [b|]; try (apply range_addressed; exact Hg).
    (* .[] *)
    unfold vkey_values. destruct v as [| | | | |a|o]; try exact I.
    + inversion Hg as [| | | | |a' Ha|]; subst. apply sforall_of_list. rewrite Forall_map, Forall_map.
      pose proof (enum_nth a 0 [] eq_refl) as H. cbn [app] in H. eapply Forall_impl; [|exact H].
      intros [i x] [Hn Hr]. cbn [fst snd] in *. split.
      * split; [reflexivity|]. apply vindex_arr; assumption.
      * rewrite Forall_forall in Ha. apply Ha. eapply nth_error_In. exact Hn.
    + inversion Hg as [| | | | | |o' Hk Ho]; subst. apply sforall_of_list. rewrite Forall_map.
      rewrite Forall_forall in *. intros [k x] Hin. cbn [fst snd]. split.
      * split; [reflexivity|]. unfold vindex, index_opt. rewrite (Hk k x Hin). reflexivity.
      * apply (Ho (k, x) Hin).
Qed.

Definition getpath (ks : list val) (v : val) : res val :=
  fold_left (fun r k => rbind r (fun x => vindex x k)) ks (Ok v).

Lemma getpath_cons k ks v x : vindex v k = Ok x -> getpath (k :: ks) v = getpath ks x.
Proof. intros H. unfold getpath. cbn [fold_left rbind]. rewrite H. reflexivity. Qed.

Theorem path_addressed ps : forall v pa, good v ->
  sforall (fun xp => exists ks, snd xp = rev ks ++ pa /\ getpath ks v = Ok (fst xp) /\ good (fst xp)) (path_paths ps (v, pa)).
Proof.
  induction ps as [|[p opt] r IH]; intros v pa Hg; cbn [path_paths].
  - cbn. split; [|exact I]. exists []. auto.
  - eapply sforall_sbind; [apply sforall_sopt; apply part_addressed; exact Hg|].
    intros [x q] [Ha Hx]. unfold addressed in Ha. cbn [fst snd] in *. destruct q as [|k q]; [contradiction|]. destruct Ha as [-> Hk].
    specialize (IH x (k :: pa) Hx). eapply sforall_impl; [|exact IH].
    intros [y q'] (ks & Hq & Hgp & Hy). exists (k :: ks). cbn [fst snd rev] in *.
    split; [rewrite Hq, <- app_assoc; reflexivity|]. split; [|exact Hy].
    rewrite (getpath_cons k ks v x Hk). exact Hgp.
Qed.

(** the statement of the manual: for every (value, path) pair of [path_value(p)], [getpath(path)] of the input is the value *)
Corollary getpath_of_path ps v : good v ->
  sforall (fun xp => getpath (rev (snd xp)) v = Ok (fst xp)) (path_paths ps (v, [])).
Proof.
  intros Hg. eapply sforall_impl; [|apply (path_addressed ps v [] Hg)].
  intros [y q] (ks & Hq & Hgp & _). cbn [fst snd] in *. rewrite Hq, app_nil_r, rev_involutive. exact Hgp.
Qed.

(** non-vacuity: nested arrays and objects with ordinary keys are [good] *)
Example good_ex : good (Arr [vint 1; Obj [(vstr [97], Arr [Null; vint 2]); (vint 5, Bool true)]; TStr []]).
Proof.
  repeat constructor. intros k x [H|[H|[]]]; injection H as <- <-; reflexivity.
Qed.

(** ** objects with pairwise different string keys - every object of a JSON document - are addressed by their keys *)
Lemma bytes_eqb_refl b : bytes_eqb b b = true.
Proof. destruct (bytes_eqb_spec b b); congruence. Qed.

Lemma hw_eqb_refl x : hw_eqb x x = true.
Proof. destruct x; cbn; try apply Z.eqb_refl. apply bytes_eqb_refl. Qed.

Lemma hws_eqb_refl l : hws_eqb l l = true.
Proof. induction l as [|x l IH]; [reflexivity|]. cbn. rewrite hw_eqb_refl, IH. reflexivity. Qed.

Lemma val_eqb_tstr a b : val_eqb (TStr a) (TStr b) = bytes_eqb a b.
Proof. reflexivity. Qed.

Definition string_keys (o : obj) : Prop := forall k x, In (k, x) o -> exists b, k = TStr b.

Lemma find_hashed_string o : forall k x, string_keys o -> NoDup (map fst o) -> In (k, x) o -> find_hashed val_eqb o k = Some x.
Proof.
  induction o as [|[k' x'] r IH]; intros k x Hs Hn Hin; [destruct Hin|]. cbn [find_hashed].
  inversion Hn as [|? ? Hnot Hn']; subst. destruct Hin as [E|Hin].
  - injection E as -> ->. destruct (Hs k x (or_introl eq_refl)) as (b & ->).
    rewrite hws_eqb_refl, val_eqb_tstr, bytes_eqb_refl. reflexivity.
  - destruct (Hs k x (or_intror Hin)) as (b & ->). destruct (Hs k' x' (or_introl eq_refl)) as (b' & ->).
    assert (Hne : b <> b').
    { intros ->. apply Hnot. cbn [fst]. apply in_map_iff. exists (TStr b', x). split; [reflexivity|exact Hin]. }
    rewrite val_eqb_tstr. destruct (bytes_eqb_spec b b') as [E|_]; [contradiction|]. rewrite andb_false_r.
    apply IH; [intros k2 x2 H2; apply (Hs k2 x2); right; exact H2|exact Hn'|exact Hin].
Qed.

Lemma string_keys_ok o : string_keys o -> NoDup (map fst o) -> keys_ok o.
Proof.
  intros Hs Hn k x Hin. unfold get, get_with. destruct o as [|[k1 x1] [|kv r]]; [destruct Hin| |].
  - destruct Hin as [E|[]]. injection E as -> ->. destruct (Hs k x (or_introl eq_refl)) as (b & ->).
    rewrite val_eqb_tstr, bytes_eqb_refl. reflexivity.
  - apply find_hashed_string; assumption.
Qed.

(** JSON-like values: scalars, arrays, and objects with pairwise different text keys *)
Inductive json_like : val -> Prop :=
| j_null : json_like Null
| j_bool b : json_like (Bool b)
| j_num n : json_like (Num n)
| j_str b : json_like (TStr b)
| j_arr a : Forall json_like a -> json_like (Arr a)
| j_obj o : string_keys o -> NoDup (map fst o) -> Forall (fun kv => json_like (snd kv)) o -> json_like (Obj o).

Lemma json_like_good_list : forall l, Forall (fun v => json_like v -> good v) l -> Forall json_like l -> Forall good l.
Proof. induction l as [|v l IH]; intros H1 H2; constructor; inversion H1; inversion H2; subst; auto. Qed.

Theorem json_like_good v : json_like v -> good v.
Proof.
  induction v as [| | | | |a IH|o IH] using val_nest_ind; intros Hj; inversion Hj as [| | | |a' Ha|o' Hs Hn Ho]; subst; constructor.
  - apply json_like_good_list; [apply Forall_forall, IH|exact Ha].
  - apply string_keys_ok; assumption.
  - rewrite Forall_forall in *. intros kx Hx. apply (IH kx Hx), (Ho kx Hx).
Qed.

(** so for every JSON-like input and every path: getpath (path p) = p *)
Corollary getpath_of_path_json ps v : json_like v ->
  sforall (fun xp => getpath (rev (snd xp)) v = Ok (fst xp)) (path_paths ps (v, [])).
Proof. intros H. apply getpath_of_path. apply json_like_good. exact H. Qed.
