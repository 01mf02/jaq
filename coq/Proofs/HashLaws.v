(** Equal numbers are interchangeable as keys: whatever their representation (machine integer, big integer, float,
    decimal literal), numbers that are [==] feed the hasher the same writes. *)
From Coq Require Import ZArith Bool List Lia.
From JaqV Require Import Base.F64 Base.Bytes Val.Num Proofs.F64Order.
Import ListNotations.
Local Open Scope Z_scope.

Lemma total_key_inj l r : valid_bits l = true -> valid_bits r = true -> total_key l = total_key r -> l = r.
Proof.
  intros Hl Hr. apply valid_bits_range in Hl, Hr. unfold total_key.
  destruct (Z.ltb_spec l two63), (Z.ltb_spec r two63); lia.
Qed.

Lemma zero_finite b : is_zero b = true -> is_finite b = true.
Proof.
  unfold is_zero. intros H. apply orb_prop in H as [H|H]; apply Z.eqb_eq in H; subst; reflexivity.
Qed.

(** floats that compare equal are both zeros or the same bit pattern *)
Lemma float_eq_cases l r : valid_bits l = true -> valid_bits r = true -> float_eq l r = true ->
  (is_zero l = true /\ is_zero r = true) \/ l = r.
Proof.
  intros Hl Hr H. apply float_eq_cmp in H. unfold float_cmp in H.
  destruct (is_zero l && is_zero r) eqn:Z; [left; apply andb_prop in Z; exact Z|].
  destruct (is_nan l); [discriminate|]. destruct (is_nan r); [discriminate|].
  right. apply Z.compare_eq in H. apply total_key_inj; assumption.
Qed.

Lemma float_eq_hash l r : valid_bits l = true -> valid_bits r = true -> float_eq l r = true -> hash_float l = hash_float r.
Proof.
  intros Hl Hr H. destruct (float_eq_cases l r Hl Hr H) as [[Zl Zr]| ->]; [|reflexivity].
  unfold hash_float. rewrite (zero_finite l Zl), (zero_finite r Zr), Zl, Zr. reflexivity.
Qed.

Lemma float_eq_finite l r : valid_bits l = true -> valid_bits r = true -> float_eq l r = true -> is_finite r = true -> is_finite l = true.
Proof.
  intros Hl Hr H Hf. destruct (float_eq_cases l r Hl Hr H) as [[Zl Zr]| ->]; [apply zero_finite; exact Zl|exact Hf].
Qed.

Lemma float_eq_sym l r : float_eq l r = float_eq r l.
Proof.
  unfold float_eq, float_cmp. rewrite (andb_comm (is_zero r)), (Z.compare_antisym (total_key l)).
  destruct (is_zero l && is_zero r), (is_nan l), (is_nan r), (total_key l ?= total_key r); reflexivity.
Qed.

(** the float image of a number (what comparisons with floats and the hasher look at) is a 64-bit pattern; for machine
    integers it is finite.  For [Flt f] this says that the value is well formed; for the other representations these are
    facts about [SpecFloat]'s rounding ([of_Z], [dec_to_f64]).  Both are assumed here explicitly (see the examples). *)
Definition fimage (x : num) : Z :=
  match x with Int a | Big a => of_Z a | Flt f => f | Dec s => dec_to_f64 s end.
Definition image_ok (x : num) : Prop :=
  valid_bits (fimage x) = true /\ match x with Int a => is_finite (of_Z a) = true | _ => True end.

(** outside the integers, [==] is the equality of the float images; next to an integer the other side has to be finite *)
Lemma num_eqb_float x y : is_int x && is_int y = false ->
  num_eqb x y = (if is_int x then is_finite (fimage y) else true) && (if is_int y then is_finite (fimage x) else true)
                && float_eq (fimage x) (fimage y).
Proof.
  destruct x, y; cbn; intros I; try discriminate I; rewrite ?andb_true_r; try reflexivity; f_equal; apply float_eq_sym.
Qed.

Lemma hash_num_image x : (is_int x = true -> is_finite (fimage x) = true) -> hash_num x = hash_float (fimage x).
Proof. destruct x; cbn; intros H; try reflexivity. rewrite H; reflexivity. Qed.

Theorem hash_coherent x y : image_ok x -> image_ok y -> num_eqb x y = true -> hash_num x = hash_num y.
Proof.
  intros [Vx Fx] [Vy Fy] H. destruct (is_int x && is_int y) eqn:I.
  - (* equal integers: a machine integer has a finite image, and two big integers hash alike anyway *)
    destruct x as [a|a|f|s], y as [b|b|g|t]; try discriminate I; cbn in H; apply Z.eqb_eq in H; subst b; cbn; rewrite ?Fx, ?Fy; reflexivity.
  - rewrite (num_eqb_float x y I) in H. apply andb_prop in H as [G E]. apply andb_prop in G as [Gx Gy].
    rewrite !hash_num_image.
    + apply float_eq_hash; assumption.
    + intros Iy. rewrite Iy in Gy. rewrite float_eq_sym in E. exact (float_eq_finite _ _ Vy Vx E Gy).
    + intros Ix. rewrite Ix in Gx. exact (float_eq_finite _ _ Vx Vy E Gx).
Qed.

(** the images are as assumed, e.g.: 0, -0.0, 1, 2^53, 2^63 in every representation *)
Example images_ok :
  image_ok (Int 0) /\ image_ok (Flt neg_zero) /\ image_ok (Int 1) /\ image_ok (Big 9007199254740992) /\ image_ok (Flt 4845873199050653696)
  /\ image_ok (Int 9223372036854775807) /\ image_ok (Big 9223372036854775808) /\ image_ok (Dec (of_ascii [49; 46; 48])).
Proof. unfold image_ok. vm_compute. repeat split. Qed.

Example zero_keys_interchangeable : hash_num (Int 0) = hash_num (Flt neg_zero) /\ num_eqb (Int 0) (Flt neg_zero) = true.
Proof. vm_compute. split; reflexivity. Qed.
