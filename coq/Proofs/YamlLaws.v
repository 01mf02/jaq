(** YAML scalars: a string that the writer leaves unquoted is read back as that string, and it is a plain scalar that cannot
    be taken for structure; null, booleans and the special floats resolve to themselves, integers of any size are read back. *)
From Coq Require Import ZArith Bool List Lia.
From Coq Require Import Init.Byte.
From JaqV Require Import Base.Bytes Base.F64 Val.Num Val.Val Std.Codec Fmts.Yaml Proofs.DigitLaws.
Import ListNotations.
Local Open Scope Z_scope.

Record unquoted (s : bytes) : Prop := {
  u_tilde : bytes_eqb s (lit [126]) = false;
  u_marker : is_doc_marker s = false;
  u_num : is_num_like (y_strip_sign s) = false;
  u_kw : in_lits s kws = false;
  u_kw_unsigned : in_lits (y_strip_sign s) kws = false;
  u_trailing : trailing_space s = false;
  u_plain : ns_plain_one_line s = true }.

Lemma must_quote_false s : must_quote s = false -> unquoted s.
Proof.
  unfold must_quote. cbv zeta. rewrite !orb_false_iff, negb_false_iff.
  intros [[[[[[H1 H2] H3] H4] H5] H6] H7]. constructor; assumption.
Qed.

Lemma kws_split s : in_lits s kws = false ->
  in_lits s kw_null = false /\ in_lits s kw_true = false /\ in_lits s kw_false = false /\ in_lits s kw_inf = false
  /\ in_lits s kw_nan = false.
Proof. unfold kws, in_lits. rewrite !existsb_app, !orb_false_iff. tauto. Qed.

(** what is no keyword is an integer, a float or a string *)
Lemma resolve_not_kw s : in_lits s kws = false -> bytes_eqb s (lit [126]) = false ->
  resolve s = match parse_int s with
              | Some v => v
              | None => match parse_float s with Some v => v | None => TStr s end
              end.
Proof.
  intros K T. apply kws_split in K as (Knull & Ktrue & Kfalse & _ & Knan).
  unfold resolve. rewrite Knull, T, Ktrue, Kfalse, Knan. reflexivity.
Qed.

Lemma parse_sign_strip s : snd (parse_sign s) = y_strip_sign s.
Proof.
  destruct s as [|c r]; [reflexivity|]. unfold parse_sign, y_strip_sign, mem_z. cbn [existsb].
  destruct (bz c =? 43), (bz c =? 45); reflexivity.
Qed.

Lemma not_num_first u : is_num_like u = false ->
  match u with c :: r => is_digit c = false /\ ((bz c =? 46) && opt_is is_digit (hd_error r)) = false | [] => True end.
Proof. destruct u as [|c r]; [trivial|]. cbn [is_num_like]. rewrite orb_false_iff. tauto. Qed.

Lemma not_num_radix u : is_num_like u = false -> parse_radix u = None.
Proof.
  intros H. apply not_num_first in H. destruct u as [|c r]; [reflexivity|]. destruct H as [Hd _].
  unfold is_digit in Hd. cbn [parse_radix].
  destruct (Z.eqb_spec (bz c) 48); [lia|]. destruct ((49 <=? bz c) && (bz c <=? 57)) eqn:E; [lia|reflexivity].
Qed.

Lemma span_not_digit u : opt_is is_digit (hd_error u) = false -> y_span_digits u = ([], u).
Proof. destruct u as [|c r]; [reflexivity|]. cbn. intros ->. reflexivity. Qed.

Lemma not_num_float sg u : is_num_like u = false -> normalise_float sg u = None.
Proof.
  intros H. apply not_num_first in H. unfold normalise_float.
  destruct u as [|c r].
  - reflexivity.
  - destruct H as [Hd Hdot]. rewrite (span_not_digit (c :: r)) by exact Hd. cbn [hd_error opt_is negb orb bytes_eqb].
    destruct (bz c =? 46) eqn:E.
    + cbn [andb] in Hdot. rewrite (span_not_digit r Hdot). reflexivity.
    + reflexivity.
Qed.

(** the string that is written without quotes is read as itself *)
Theorem plain_is_string s : must_quote s = false -> resolve s = TStr s.
Proof.
  intros H. apply must_quote_false in H. destruct H as [Ht _ Hn Hk Hku _ _].
  rewrite (resolve_not_kw s Hk Ht). apply kws_split in Hku as (_ & _ & _ & Kinf & _).
  unfold parse_int, parse_float. destruct (parse_sign s) as [sg u] eqn:E.
  assert (u = y_strip_sign s) as -> by (rewrite <- parse_sign_strip, E; reflexivity).
  rewrite (not_num_radix _ Hn), Kinf, (not_num_float sg _ Hn). reflexivity.
Qed.

(** and it is a document that consists of one plain scalar *)
Theorem plain_is_document s : must_quote s = false -> plain_document s = true.
Proof.
  intros H. apply must_quote_false in H. destruct H as [_ Hm _ _ _ Htr Hp].
  unfold plain_document. rewrite Hp, Hm, Htr. reflexivity.
Qed.

Lemma mem_z_byte c l : mem_z (bz c) l = true -> In c (map zb l).
Proof.
  intros H. apply existsb_exists in H as (k & Hk & E). apply Z.eqb_eq in E. subst k.
  rewrite <- (zb_bz c) at 1. apply in_map, Hk.
Qed.

(* a line break or flow indicator is one of seven bytes: none of them is blank or a plain character, whatever stands around it *)
Lemma plain_char_safe prev c next :
  (s_white c || ns_plain_char prev c next) = true -> b_char c = false /\ c_flow_indicator c = false.
Proof.
  unfold ns_plain_char. generalize (ns_char prev) as b1, (opt_is ns_plain_safe next) as b2. intros b1 b2 H.
  apply orb_false_iff. destruct (b_char c || c_flow_indicator c) eqn:E; [exfalso|reflexivity].
  unfold b_char, c_flow_indicator, mem_z in E. rewrite <- existsb_app in E. apply mem_z_byte in E.
  cbn in E. decompose [or] E; try contradiction; subst c; destruct b1, b2; discriminate H.
Qed.

(* the same seven bytes and the two blanks: none of them starts a plain scalar *)
Lemma plain_first_safe c next :
  ns_plain_first c next = true -> b_char c = false /\ c_flow_indicator c = false /\ s_white c = false.
Proof.
  unfold ns_plain_first. generalize (opt_is ns_plain_safe next) as b2. intros b2 H.
  rewrite <- !orb_false_iff, orb_assoc. destruct (b_char c || c_flow_indicator c || s_white c) eqn:E; [exfalso|reflexivity].
  unfold b_char, c_flow_indicator, s_white, mem_z in E. rewrite <- !existsb_app in E. apply mem_z_byte in E.
  cbn in E. decompose [or] E; try contradiction; subst c; destruct b2; discriminate H.
Qed.

Lemma plain_rest_safe l : forall prev, plain_rest prev l = true ->
  Forall (fun c => b_char c = false /\ c_flow_indicator c = false) l.
Proof.
  induction l as [|c l IH]; intros prev H; [constructor|]. cbn [plain_rest] in H. apply andb_prop in H as [Hc Hl].
  constructor; [eapply plain_char_safe; exact Hc | eapply IH; exact Hl].
Qed.

(** no line break, no flow indicator, no blank at either end *)
Theorem plain_no_structure s : must_quote s = false ->
  Forall (fun c => b_char c = false /\ c_flow_indicator c = false) s
  /\ match s with c :: _ => s_white c = false | [] => False end
  /\ trailing_space s = false.
Proof.
  intros H. apply must_quote_false in H. destruct H as [_ _ _ _ _ Htr Hp].
  destruct s as [|c r]; [discriminate|]. cbn [ns_plain_one_line] in Hp. apply andb_prop in Hp as [Hf Hr].
  apply plain_first_safe in Hf as (A & B & C). split; [|split; assumption].
  constructor; [split; assumption | eapply plain_rest_safe; exact Hr].
Qed.

Definition colon : byte := zb 58.
Definition hash : byte := zb 35.

Lemma last_cons (c : byte) pre d : last (c :: pre) d = last pre c.
Proof.
  revert c d. induction pre as [|x pre IH]; intros c d; [reflexivity|].
  change (last (c :: x :: pre) d) with (last (x :: pre) d). rewrite !IH. reflexivity.
Qed.

(** what the grammar asks of a byte of a plain scalar, by where it stands *)
Lemma plain_rest_at pre : forall prev x post, plain_rest prev (pre ++ x :: post) = true ->
  (s_white x || ns_plain_char (last pre prev) x (hd_error post)) = true.
Proof.
  induction pre as [|c pre IH]; intros prev x post H; cbn [app plain_rest] in H; apply andb_prop in H as [H1 H2].
  - exact H1.
  - rewrite last_cons. apply IH, H2.
Qed.

Lemma one_line_at pre x post : ns_plain_one_line (pre ++ x :: post) = true ->
  match pre with
  | [] => ns_plain_first x (hd_error post) = true
  | c :: pre' => (s_white x || ns_plain_char (last pre' c) x (hd_error post)) = true
  end.
Proof.
  destruct pre as [|c pre']; cbn [app ns_plain_one_line]; intros H; apply andb_prop in H as [H1 H2].
  - exact H1.
  - apply plain_rest_at, H2.
Qed.

(** a colon is never followed by a blank or the end: no key separator *)
Theorem plain_no_key_separator s pre post : must_quote s = false -> s = pre ++ colon :: post ->
  opt_is ns_plain_safe (hd_error post) = true.
Proof.
  intros H ->. apply must_quote_false, u_plain, one_line_at in H.
  unfold ns_plain_first, ns_plain_char in H. revert H. generalize (opt_is ns_plain_safe (hd_error post)) as b2.
  destruct pre as [|c pre'].
  - intros [|] H; [reflexivity | discriminate H].
  - generalize (ns_char (last pre' c)) as b1. intros [|] [|] H; reflexivity || discriminate H.
Qed.

(** a hash is never at the start or after a blank: no comment *)
Theorem plain_no_comment s pre post : must_quote s = false -> s = pre ++ hash :: post ->
  exists c pre', pre = c :: pre' /\ ns_char (last pre' c) = true.
Proof.
  intros H ->. apply must_quote_false, u_plain, one_line_at in H.
  unfold ns_plain_first, ns_plain_char in H. revert H. generalize (opt_is ns_plain_safe (hd_error post)) as b2.
  destruct pre as [|c pre'].
  - intros [|] H; discriminate H.
  - intros b2 H. exists c, pre'. split; [reflexivity|]. revert H.
    generalize (ns_char (last pre' c)) as b1. destruct b2; intros [|] H; reflexivity || discriminate H.
Qed.

(** the scalars that are not strings are written as what is read back as them *)
Theorem scalars_resolve :
  resolve (to_yaml Null) = Null /\ resolve (to_yaml (Bool true)) = Bool true /\ resolve (to_yaml (Bool false)) = Bool false
  /\ resolve (to_yaml (Num (Flt pos_inf))) = Num (Flt pos_inf) /\ resolve (to_yaml (Num (Flt neg_inf))) = Num (Flt neg_inf)
  /\ resolve (to_yaml (Num (Flt nan_bits))) = Num (Flt nan_bits).
Proof. repeat split; vm_compute; reflexivity. Qed.

(** non-vacuity, and the strings of the findings are quoted *)
Example unquoted_ex : must_quote (lit [97; 32; 98; 58; 99; 35]) = false /\ must_quote (lit [45; 97]) = false.
Proof. split; vm_compute; reflexivity. Qed.
Example quoted_ex :
  Forall (fun s => must_quote s = true)
    [lit [43; 49]; lit [46; 53]; lit [45; 46; 105; 110; 102]; lit [97; 32]; lit [110; 117; 108; 108]; lit [45; 45; 45; 32; 97];
     lit [126]; lit [97; 58; 32; 98]; lit [97; 32; 35; 98]; lit [48; 120; 49]; lit []; lit [45; 32; 97]; lit [91; 97]].
Proof. apply Forall_forall, forallb_forall. vm_compute. reflexivity. Qed.

(** every keyword starts with a letter, a dot or the tilde; an integer starts with a sign or a digit *)
Lemma kw_first l : In l (lit [126] :: kws) -> exists d t, l = d :: t /\ (bz d = 46 \/ 58 <= bz d).
Proof.
  assert (T : forallb (fun l => match l with d :: _ => (bz d =? 46) || (58 <=? bz d) | [] => false end) (lit [126] :: kws) = true)
    by reflexivity.
  intros H. apply (proj1 (forallb_forall _ _) T) in H. destruct l as [|d t]; [discriminate|]. exists d, t. split; [reflexivity|lia].
Qed.

Lemma parse_int_first s v : parse_int s = Some v -> exists c r, s = c :: r /\ bz c <> 46 /\ bz c < 58.
Proof.
  unfold parse_int, parse_sign, mem_z. destruct s as [|c r]; [discriminate|]. intros H. exists c, r. split; [reflexivity|].
  cbn [existsb] in H. destruct (Z.eqb_spec (bz c) 43); [lia|]. destruct (Z.eqb_spec (bz c) 45); [lia|].
  cbn [orb parse_radix] in H. destruct (Z.eqb_spec (bz c) 48); [lia|].
  destruct ((49 <=? bz c) && (bz c <=? 57)) eqn:E; [lia|discriminate].
Qed.

Lemma resolve_int s v : parse_int s = Some v -> resolve s = v.
Proof.
  intros P. destruct (parse_int_first s v P) as (c & r & -> & N46 & N58).
  assert (K : in_lits (c :: r) (lit [126] :: kws) = false).
  { destruct (in_lits (c :: r) (lit [126] :: kws)) eqn:E; [exfalso|reflexivity].
    apply existsb_exists in E as (l & Hl & E). apply kw_first in Hl as (d & t & -> & Hd).
    cbn [bytes_eqb] in E. apply andb_prop in E as [E _]. apply Z.eqb_eq in E. lia. }
  unfold in_lits in K. cbn [existsb] in K. apply orb_false_iff in K as [T K].
  rewrite (resolve_not_kw _ K T), P. reflexivity.
Qed.

Lemma radix10_digits ds : forall a, all_digits ds = true -> radix_val 10 a ds = Some (digits_val_acc a ds).
Proof.
  induction ds as [|d ds IH]; intros a H; [reflexivity|]. cbn [all_digits forallb] in H. apply andb_prop in H as [Hd Hr].
  cbn [radix_val digits_val_acc]. unfold digit_of. unfold is_digit in Hd. rewrite Hd.
  destruct (Z.ltb_spec (bz d - 48) 10); [|lia]. unfold digit_val. apply IH. exact Hr.
Qed.

(** the digits of a natural number carry no sign and are read in base ten ("0" alone in base two) *)
Lemma digits_magnitude z : 0 <= z ->
  parse_sign (nat_digits z) = (None, nat_digits z)
  /\ exists radix, parse_radix (nat_digits z) = Some (radix, nat_digits z)
                   /\ from_str_radix (nat_digits z) radix = Some (int_or_big z).
Proof.
  intros Hz. destruct (nat_digits_spec z Hz) as (Hne & Hd & Hv & Hh).
  destruct (nat_digits z) as [|d ds] eqn:E; [congruence|].
  pose proof Hd as Hd1. cbn [all_digits forallb] in Hd1. apply andb_prop in Hd1 as [Hd1 _]. unfold is_digit in Hd1.
  split.
  - unfold parse_sign, mem_z. cbn [existsb]. destruct (Z.eqb_spec (bz d) 43); [lia|]. destruct (Z.eqb_spec (bz d) 45); [lia|].
    reflexivity.
  - destruct (Z.eq_dec z 0) as [->|Nz].
    + exists 2. injection E as <- <-. split; reflexivity.
    + exists 10. specialize (Hh ltac:(lia)). split.
      * cbn [parse_radix]. destruct (Z.eqb_spec (bz d) 48); [lia|].
        destruct ((49 <=? bz d) && (bz d <=? 57)) eqn:E2; [reflexivity|lia].
      * unfold from_str_radix. destruct (Z.eqb_spec (bz d) 45); [lia|]. destruct (Z.eqb_spec (bz d) 43); [lia|].
        rewrite (radix10_digits (d :: ds) 0 Hd). unfold digits_val in Hv. rewrite Hv. reflexivity.
Qed.

Lemma parse_int_digits z : 0 <= z ->
  parse_int (nat_digits z) = Some (Num (int_or_big z))
  /\ parse_int (x2d :: nat_digits z) = Some (Num (Num.neg (int_or_big z))).
Proof.
  intros Hz. destruct (digits_magnitude z Hz) as (PS & radix & PR & FS). unfold parse_int.
  change (parse_sign (x2d :: nat_digits z)) with (Some x2d, nat_digits z).
  rewrite PS. cbv beta iota. rewrite PR, FS. split; reflexivity.
Qed.

Lemma to_yaml_int z : to_yaml (Num (int_or_big z)) = Z_to_dec z.
Proof. unfold int_or_big. destruct (in_isize z); reflexivity. Qed.

(** non-negative integers of any size, and negative ones: the same integer is read back
    (the most negative machine integer comes back as the equal big integer) *)
Theorem yaml_integer_roundtrip z :
  resolve (to_yaml (Num (int_or_big z))) = Num (if 0 <=? z then int_or_big z else Num.neg (int_or_big (- z))).
Proof.
  rewrite to_yaml_int. unfold Z_to_dec. rewrite Z.ltb_antisym. apply resolve_int.
  destruct (Z.leb_spec 0 z); cbn [negb]; apply parse_int_digits; lia.
Qed.
