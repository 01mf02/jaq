(** The algebra of the stream semantics: `|` is bind, `,` is append, `empty` and `.` are their units, errors absorb what
    follows, `try` replaces the first error.  These are the equations the manual states for filters, proved for every
    stream (however it ends: end, error, break, halt, divergence, outside the model). *)
From Coq Require Import List FunctionalExtensionality.
From JaqV Require Import Base.Stream Val.Err.
Import ListNotations.

(** streams are compared thunk by thunk: the laws below need extensionality for this and nothing else *)
Lemma SCons_ext {A} (x : A) k k' : k tt = k' tt -> SCons x k = SCons x k'.
Proof. intros H. f_equal. apply functional_extensionality. intros []. exact H. Qed.

Lemma sapp_ext {A} (s : str A) r r' : r tt = r' tt -> sapp s r = sapp s r'.
Proof. intros H. induction s as [|x k IH|e| |]; cbn [sapp]; try reflexivity; [exact H|apply SCons_ext, IH]. Qed.

Lemma sbind_ext {A B} (s : str A) (f g : A -> str B) : (forall x, f x = g x) -> sbind s f = sbind s g.
Proof. intros H. induction s as [|x k IH|e| |]; cbn [sbind]; try reflexivity. rewrite H. apply sapp_ext, IH. Qed.

Lemma stry_ext {A} (s : str A) (h h' : err -> str A) : (forall e, h e = h' e) -> stry s h = stry s h'.
Proof.
  intros H. induction s as [|x k IH|e| |]; cbn [stry]; try reflexivity; [apply SCons_ext, IH|destruct e; [apply H|reflexivity..]].
Qed.

Lemma sapp_nil_r {A} (s : str A) : sapp s (fun _ => SNil) = s.
Proof.
  induction s as [|x k IH|e| |]; cbn [sapp]; try reflexivity. apply SCons_ext, IH.
Qed.

Lemma sapp_assoc' {A} (s : str A) r t : sapp (sapp s r) t = sapp s (fun _ => sapp (r tt) t).
Proof.
  induction s as [|x k IH|e| |]; cbn [sapp]; try reflexivity. apply SCons_ext, IH.
Qed.

Lemma sbind_sone_l {A B} (x : A) (f : A -> str B) : sbind (sone x) f = f x.
Proof. unfold sone. cbn [sbind]. apply sapp_nil_r. Qed.

Lemma sbind_sone_r {A} (s : str A) : sbind s sone = s.
Proof.
  induction s as [|x k IH|e| |]; cbn [sbind]; try reflexivity. apply SCons_ext, IH.
Qed.

Lemma sbind_sapp {A B} (s : str A) r (f : A -> str B) : sbind (sapp s r) f = sapp (sbind s f) (fun _ => sbind (r tt) f).
Proof.
  induction s as [|x k IH|e| |]; cbn [sapp sbind]; try reflexivity.
  rewrite sapp_assoc'. apply sapp_ext, IH.
Qed.

Lemma sbind_assoc {A B C} (s : str A) (f : A -> str B) (g : B -> str C) :
  sbind (sbind s f) g = sbind s (fun x => sbind (f x) g).
Proof.
  induction s as [|x k IH|e| |]; cbn [sbind]; try reflexivity.
  rewrite sbind_sapp. apply sapp_ext, IH.
Qed.

Lemma sbind_nil {A B} (f : A -> str B) : sbind SNil f = SNil. Proof. reflexivity. Qed.
Lemma sapp_nil_l {A} (r : unit -> str A) : sapp SNil r = r tt. Proof. reflexivity. Qed.

(** `f | empty` yields nothing, but still ends as `f` ends (an error of `f` is not lost) *)
Lemma sbind_empty {A B} (xs : list A) (t : str A) :
  (match t with SCons _ _ => False | _ => True end) ->
  sbind (sapp (of_list xs) (fun _ => t)) (fun _ => @SNil B) = sbind t (fun _ => SNil).
Proof. intros _. induction xs as [|x xs IH]; cbn [of_list sapp sbind]; [reflexivity|]. exact IH. Qed.

Lemma error_absorbs {A B} e (r : unit -> str A) (f : A -> str B) :
  sapp (SExn e) r = SExn e /\ sbind (SExn e) f = SExn e.
Proof. split; reflexivity. Qed.

Lemma stry_prefix {A} (xs : list A) e r (h : err -> str A) :
  stry (sapp (of_list xs) (fun _ => sapp (serr e) r)) h = sapp (of_list xs) (fun _ => h e).
Proof.
  induction xs as [|x xs IH]; cbn [of_list sapp stry]; [reflexivity|]. apply SCons_ext, IH.
Qed.

Lemma stry_no_error {A} (xs : list A) (h : err -> str A) : stry (of_list xs) h = of_list xs.
Proof. induction xs as [|x xs IH]; cbn [of_list stry]; [reflexivity|]. apply SCons_ext, IH. Qed.

Lemma smap_sbind {A B} (g : A -> B) (s : str A) : smap g s = sbind s (fun x => sone (g x)).
Proof.
  induction s as [|x k IH|e| |]; cbn [smap sbind]; try reflexivity. apply SCons_ext, IH.
Qed.

Lemma smap_sapp {A B} (f : A -> B) (s : str A) r :
  smap f (sapp s r) = sapp (smap f s) (fun _ => smap f (r tt)).
Proof. induction s as [|x k IH|e| |]; cbn; try reflexivity. apply SCons_ext, IH. Qed.

Lemma smap_over_sbind {A B C} (f : B -> C) (s : str A) (g : A -> str B) :
  smap f (sbind s g) = sbind s (fun x => smap f (g x)).
Proof. induction s as [|x k IH|e| |]; cbn; try reflexivity. rewrite smap_sapp. apply sapp_ext, IH. Qed.

Lemma sbind_smap {A B C} (f : A -> B) (s : str A) (g : B -> str C) :
  sbind (smap f s) g = sbind s (fun x => g (f x)).
Proof. induction s as [|x k IH|e| |]; cbn; try reflexivity. apply sapp_ext, IH. Qed.

Lemma smap_smap {A B C} (h : A -> B) (k : B -> C) (s : str A) : smap k (smap h s) = smap (fun x => k (h x)) s.
Proof. induction s as [|x t IH|e| |]; cbn; try reflexivity. apply SCons_ext, IH. Qed.
