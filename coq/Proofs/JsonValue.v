(** Print-then-parse is the identity on values: the compact JSON text that the writer (Json/Write.v) produces for a value
    built from null, booleans, integers of any size, text strings and byte strings of any bytes, arrays, and objects with
    any such values as keys, is read back by the parser (Json/Read.v) as exactly that value, alone or in front of anything that continues no number
    ([JsonInt.ends_number]; in particular `,` `]` `}` `:`, [stops]). *)
From Coq Require Import ZArith Bool List Lia.
From Coq Require Import Init.Byte.
From JaqV Require Import Base.Bytes Val.Num Val.Val Json.Write Json.Read Proofs.ValInd Proofs.DigitLaws Proofs.DecodeLaws Proofs.JsonInt Proofs.JsonString.
Import ListNotations.
Local Open Scope Z_scope.

(** what may follow a value inside a text: nothing, or `,` `]` `}` `:` *)
Definition stop_byte (c : byte) : bool := let z := bz c in (z =? 44) || (z =? 93) || (z =? 125) || (z =? 58).
Definition stops (rest : bytes) : Prop := match rest with [] => True | c :: _ => stop_byte c = true end.

Lemma stop_cases c : stop_byte c = true -> bz c = 44 \/ bz c = 93 \/ bz c = 125 \/ bz c = 58.
Proof.
  unfold stop_byte. cbv zeta. intros H. repeat (apply orb_prop in H; destruct H as [H|H]); apply Z.eqb_eq in H; auto.
Qed.

Lemma num_part_stop st c : stop_byte c = true -> num_part st (bz c) = None.
Proof.
  intros H. destruct st as [r z d e]. unfold num_part. cbn [n_read n_zero n_dot n_exp].
  destruct (stop_cases c H) as [E|[E|[E|E]]]; rewrite E; cbn; rewrite ?andb_false_r; cbn; rewrite ?andb_false_r; reflexivity.
Qed.

Lemma stops_ends_number rest : stops rest -> ends_number rest.
Proof. destruct rest as [|c r]; [auto|]. intros H st. apply num_part_stop. exact H. Qed.

Lemma ws_stop c r : stop_byte c = true -> ws (c :: r) = c :: r.
Proof.
  intros H. unfold ws. cbn [length ws_tk]. unfold is_ws.
  destruct (stop_cases c H) as [E|[E|[E|E]]]; rewrite E; reflexivity.
Qed.

Definition commas (ts : list bytes) : bytes := flat_map (fun t : bytes => chr 44 :: t) ts.
Definition join (ts : list bytes) : bytes := match ts with [] => [] | t :: r => t ++ commas r end.

Lemma commas_cons t ts : commas (t :: ts) = chr 44 :: t ++ commas ts.
Proof. reflexivity. Qed.

Lemma write_seq_default level ts : write_seq pp_default level ts = join ts.
Proof.
  unfold write_seq. cbn [pp_indent pp_default]. destruct ts as [|t ts]; [reflexivity|]. revert t.
  induction ts as [|u ts IH]; intros t; [cbn [join commas flat_map]; rewrite app_nil_r; reflexivity|].
  rewrite IH. reflexivity.
Qed.

Lemma join_length_in (ts : list bytes) (t : bytes) : In t ts -> (length t <= length (join ts))%nat.
Proof.
  destruct ts as [|x r]; [intros []|]. cbn [join]. rewrite app_length. intros [->|H]; [lia|].
  pose proof (in_flat_map_len (fun t : bytes => chr 44 :: t) r t H). cbn [length] in *. unfold commas. lia.
Qed.

Lemma join_length_count (ts : list bytes) : (length ts <= S (length (join ts)))%nat.
Proof.
  destruct ts as [|x r]; [cbn; lia|]. cbn [join length]. rewrite app_length.
  pose proof (flat_map_length_ge (fun t : bytes => chr 44 :: t) r ltac:(discriminate)). unfold commas. lia.
Qed.

Definition entry_f (w : val -> bytes) (kv : val * val) : bytes := w (fst kv) ++ chr 58 :: w (snd kv).

Lemma write_arr n l a :
  write_f (S n) false pp_default l (Arr a) = [chr 91] ++ join (map (write_f n false pp_default (S l)) a) ++ [chr 93].
Proof. cbn [write_f]. destruct a; [reflexivity|]. rewrite write_seq_default. reflexivity. Qed.

Lemma write_obj n l o :
  write_f (S n) false pp_default l (Obj o) = [chr 123] ++ join (map (entry_f (write_f n false pp_default (S l))) o) ++ [chr 125].
Proof. cbn [write_f pp_sort_keys pp_default pp_sep_space]. destruct o; [reflexivity|]. rewrite write_seq_default. reflexivity. Qed.

Lemma write_fuel : forall n m v, (depth v < n)%nat -> (depth v < m)%nat ->
  forall l l', write_f n false pp_default l v = write_f m false pp_default l' v.
Proof.
  apply (fuel_above_depth (fun n m v => forall l l', write_f n false pp_default l v = write_f m false pp_default l' v)).
  intros n m [| | | | |a|o] IH l l'; try reflexivity.
  - rewrite !write_arr. do 3 f_equal. apply map_ext_in. intros y Hy. apply IH, depth_arr_in, Hy.
  - rewrite !write_obj. do 3 f_equal. apply map_ext_in. intros e He. destruct (depth_obj_in e _ He) as [Dk Dv].
    unfold entry_f. rewrite (IH _ Dk (S l) (S l')), (IH _ Dv (S l) (S l')). reflexivity.
Qed.

Lemma write_compact v n l : (depth v < n)%nat -> write_f n false pp_default l v = to_json v.
Proof. intros H. apply write_fuel; [exact H|lia]. Qed.

Lemma to_json_arr a : to_json (Arr a) = [chr 91] ++ join (map to_json a) ++ [chr 93].
Proof.
  unfold to_json at 1, write_val. rewrite write_arr. do 3 f_equal. apply map_ext_in. intros y Hy. apply write_compact, depth_arr_in, Hy.
Qed.

Definition entry : val * val -> bytes := entry_f to_json.

Lemma to_json_obj o : to_json (Obj o) = [chr 123] ++ join (map entry o) ++ [chr 125].
Proof.
  unfold to_json at 1, write_val. rewrite write_obj. do 3 f_equal. apply map_ext_in. intros e He. destruct (depth_obj_in e _ He).
  unfold entry, entry_f. rewrite !write_compact by assumption. reflexivity.
Qed.

(** [parse] runs through the items of an array and the entries of an object with local [fix]es, which no statement can name.
    They are written out here with the parser for the components as a parameter, convertible with the model's: [parse_arr]
    and [parse_obj] hold by [reflexivity]. *)
Definition nonempty {A} (e : perr) (s : bytes) (k : bytes -> pres A) : pres A :=
  match s with [] => PErr e | c :: r => k (c :: r) end.

Definition arr_items (parse : bytes -> pres val) :=
  fix items (n : nat) (s : bytes) (acc : list val) : pres val :=
    match n with
    | O => PErr PFuel
    | S n =>
        match parse s with
        | PErr e => PErr e
        | POk v rest =>
            match ws rest with
            | [] => PErr PExpectCommaOrEnd
            | c2 :: r2 =>
                if bz c2 =? 93 then POk (Arr (rev (v :: acc))) r2
                else if bz c2 =? 44 then
                  nonempty PExpectValue (ws r2) (fun s' => items n s' (v :: acc))
                else PErr PExpectCommaOrEnd
            end
        end
    end.

Definition obj_entries (parse : bytes -> pres val) :=
  fix entries (n : nat) (s : bytes) (acc : obj) : pres val :=
    match n with
    | O => PErr PFuel
    | S n =>
        match parse s with
        | PErr e => PErr e
        | POk k rest =>
            match ws rest with
            | c2 :: r2 =>
                if bz c2 =? 58 then
                  nonempty PExpectValue (ws r2) (fun s2 =>
                    match parse s2 with
                    | PErr e => PErr e
                    | POk v rest2 =>
                        let acc' := insert acc k v in
                        match ws rest2 with
                        | [] => PErr PExpectCommaOrEnd
                        | c3 :: r3 =>
                            if bz c3 =? 125 then POk (Obj acc') r3
                            else if bz c3 =? 44 then nonempty PExpectValue (ws r3) (fun s' => entries n s' acc')
                            else PErr PExpectCommaOrEnd
                        end
                    end)
                else PErr PExpectColon
            | [] => PErr PExpectColon
            end
        end
    end.

Lemma parse_arr fuel r :
  parse (S fuel) (chr 91 :: r)
  = match ws r with
    | [] => PErr PExpectValueOrEnd
    | c1 :: r1 => if bz c1 =? 93 then POk (Arr []) r1 else arr_items (parse fuel) fuel (c1 :: r1) []
    end.
Proof. reflexivity. Qed.

Lemma parse_obj fuel r :
  parse (S fuel) (chr 123 :: r)
  = match ws r with
    | [] => PErr PExpectValueOrEnd
    | c1 :: r1 => if bz c1 =? 125 then POk (Obj []) r1 else obj_entries (parse fuel) fuel (c1 :: r1) []
    end.
Proof. reflexivity. Qed.

(** as the parser builds an object: inserting the entries one after the other appends each (no key occurs twice) *)
Fixpoint wf_from (acc o : obj) : Prop :=
  match o with
  | [] => True
  | (k, v) :: r => insert acc k v = acc ++ [(k, v)] /\ wf_from (acc ++ [(k, v)]) r
  end.
Definition wf_obj (o : obj) : Prop := wf_from [] o.

Inductive rt : val -> Prop :=
| rt_null : rt Null
| rt_bool b : rt (Bool b)
| rt_int z : rt (Num (int_or_big z))
| rt_tstr s : rt (TStr s)
| rt_bstr s : rt (BStr s)
| rt_arr a : Forall rt a -> rt (Arr a)
| rt_obj o : Forall (fun kv => rt (fst kv) /\ rt (snd kv)) o -> wf_obj o -> rt (Obj o).

(** a rendered value starts with a byte that is neither blank, comment, `]` nor `}` *)
Definition vstart (t : bytes) : Prop :=
  exists c r, t = c :: r /\ is_ws c = false /\ (bz c =? 35) = false /\ (bz c =? 93) = false /\ (bz c =? 125) = false.

Lemma vstart_ws t rest : vstart t -> ws (t ++ rest) = t ++ rest.
Proof. intros (c & r & -> & H1 & H2 & _). unfold ws. cbn [app length ws_tk]. rewrite H1, H2. reflexivity. Qed.

Lemma vstart_nonempty t : vstart t -> (1 <= length t)%nat.
Proof. intros (c & r & -> & _). cbn. lia. Qed.

Lemma nonempty_vstart {A} e t rest (k : bytes -> pres A) : vstart t -> nonempty e (ws (t ++ rest)) k = k (t ++ rest).
Proof. intros V. rewrite (vstart_ws _ _ V). destruct V as (c & r & -> & _). reflexivity. Qed.

Lemma number_byte_neq c k : is_digit c = true \/ bz c = 45 -> k < 45 \/ 57 < k -> (bz c =? k) = false.
Proof. intros H Hk. apply Z.eqb_neq. rewrite is_digit_range in H. lia. Qed.

Lemma vstart_number c r : is_digit c = true \/ bz c = 45 -> vstart (c :: r).
Proof.
  intros H. exists c, r. split; [reflexivity|]. unfold is_ws. cbv zeta. rewrite !(number_byte_neq c _ H) by lia. auto.
Qed.

Lemma vstart_json v : rt v -> vstart (to_json v).
Proof.
  intros H. destruct H as [|b|z|s|s|a _|o _ _]; [|destruct b| | | |rewrite to_json_arr|rewrite to_json_obj].
  1-3,5-8: eexists _, _; repeat split; reflexivity.
  change (to_json (Num (int_or_big z))) with (show_num (int_or_big z)). rewrite show_int_or_big.
  destruct (dec_first z) as (c & r & -> & H). apply vstart_number. exact H.
Qed.

Lemma parse_number fuel c r : is_digit c = true \/ bz c = 45 ->
  parse (S fuel) (c :: r) = match parse_num (c :: r) with POk x rest => POk (Num x) rest | PErr e => PErr e end.
Proof.
  intros H. cbn [parse]. cbv zeta.
  rewrite (number_byte_neq c 110 H), (number_byte_neq c 116 H), (number_byte_neq c 102 H), (number_byte_neq c 98 H),
    (number_byte_neq c 78 H), (number_byte_neq c 73 H) by lia.
  assert (is_dig (bz c) || (bz c =? 43) || (bz c =? 45) = true) as ->; [|reflexivity].
  destruct H as [H|H]; [change (is_dig (bz c)) with (is_digit c)|]; rewrite H; reflexivity.
Qed.

Lemma parse_tstr fuel body :
  parse (S fuel) (chr 34 :: body)
  = match parse_string (S (length body)) false body [] with POk b rest => POk (TStr b) rest | PErr e => PErr e end.
Proof. reflexivity. Qed.

Lemma parse_bstr fuel body :
  parse (S fuel) (chr 98 :: chr 34 :: body)
  = match parse_string (S (length body)) true body [] with POk b rest => POk (BStr b) rest | PErr e => PErr e end.
Proof. reflexivity. Qed.

Lemma parse_arr_empty fuel rest : parse (S fuel) (chr 91 :: chr 93 :: rest) = POk (Arr []) rest.
Proof. rewrite parse_arr, (ws_stop (chr 93) rest eq_refl). reflexivity. Qed.

Lemma parse_arr_items fuel t rest : vstart t -> parse (S fuel) (chr 91 :: t ++ rest) = arr_items (parse fuel) fuel (t ++ rest) [].
Proof.
  intros V. rewrite parse_arr, (vstart_ws _ _ V). destruct V as (c & r & -> & _ & _ & N & _). cbn [app]. rewrite N. reflexivity.
Qed.

Lemma parse_obj_empty fuel rest : parse (S fuel) (chr 123 :: chr 125 :: rest) = POk (Obj []) rest.
Proof. rewrite parse_obj, (ws_stop (chr 125) rest eq_refl). reflexivity. Qed.

Lemma parse_obj_entries fuel t rest : vstart t -> parse (S fuel) (chr 123 :: t ++ rest) = obj_entries (parse fuel) fuel (t ++ rest) [].
Proof.
  intros V. rewrite parse_obj, (vstart_ws _ _ V). destruct V as (c & r & -> & _ & _ & _ & N). cbn [app]. rewrite N. reflexivity.
Qed.

Section LOOPS.
  Variable fuel : nat.
  (** what the induction gives for the components *)
  Definition item_ok (x : val) : Prop :=
    vstart (to_json x) /\ forall rest, stops rest -> parse fuel (to_json x ++ rest) = POk x rest.

  Lemma arr_items_ok : forall l m x acc rest, (length l < m)%nat -> item_ok x -> (forall y, In y l -> item_ok y) ->
    arr_items (parse fuel) m (to_json x ++ commas (map to_json l) ++ chr 93 :: rest) acc = POk (Arr (rev acc ++ x :: l)) rest.
  Proof.
    induction l as [|y l IH]; intros m x acc rest Hm [_ Hx] Hl; (destruct m as [|m]; [cbn in Hm; lia|]); cbn [arr_items map].
    - cbn [commas flat_map app]. rewrite (Hx (chr 93 :: rest) eq_refl), (ws_stop (chr 93) rest eq_refl). reflexivity.
    - rewrite commas_cons, <- app_comm_cons, <- app_assoc.
      rewrite (Hx (chr 44 :: _) eq_refl), (ws_stop (chr 44) _ eq_refl).
      change (bz (chr 44) =? 93) with false. change (bz (chr 44) =? 44) with true. cbn iota.
      rewrite (nonempty_vstart _ _ _ _ (proj1 (Hl y (or_introl eq_refl)))).
      rewrite (IH m y (x :: acc) rest); [|cbn [length] in Hm; lia|apply Hl; left; reflexivity|intros z Hz; apply Hl; right; exact Hz].
      cbn [rev]. rewrite <- app_assoc. reflexivity.
  Qed.

  Definition entry_ok (kv : val * val) : Prop := item_ok (fst kv) /\ item_ok (snd kv).

  Lemma vstart_entry kv : entry_ok kv -> vstart (entry kv).
  Proof. intros [[(c & r & E & H) _] _]. unfold entry, entry_f. rewrite E. eexists c, _. split; [reflexivity|exact H]. Qed.

  Lemma entry_step k v m c r acc : entry_ok (k, v) -> insert acc k v = acc ++ [(k, v)] -> stop_byte c = true ->
    obj_entries (parse fuel) (S m) (entry (k, v) ++ c :: r) acc
    = if bz c =? 125 then POk (Obj (acc ++ [(k, v)])) r
      else if bz c =? 44 then nonempty PExpectValue (ws r) (fun s => obj_entries (parse fuel) m s (acc ++ [(k, v)]))
      else PErr PExpectCommaOrEnd.
  Proof.
    intros [[_ Hk] [Vv Hv]] Hins Hc. cbn [fst snd] in *. unfold entry, entry_f. cbn [fst snd]. rewrite <- app_assoc, <- app_comm_cons.
    cbn [obj_entries]. rewrite (Hk (chr 58 :: _) eq_refl), (ws_stop (chr 58) _ eq_refl).
    change (bz (chr 58) =? 58) with true. cbn iota.
    rewrite (nonempty_vstart _ _ _ _ Vv), (Hv (c :: r) Hc). cbv zeta. rewrite Hins, (ws_stop c r Hc). reflexivity.
  Qed.

  Lemma obj_entries_ok : forall o m kv acc rest, (length o < m)%nat -> entry_ok kv -> (forall e, In e o -> entry_ok e) -> wf_from acc (kv :: o) ->
    obj_entries (parse fuel) m (entry kv ++ commas (map entry o) ++ chr 125 :: rest) acc = POk (Obj (acc ++ kv :: o)) rest.
  Proof.
    induction o as [|e o IH]; intros m [k v] acc rest Hm Hkv Ho [Hins Hwf]; (destruct m as [|m]; [cbn in Hm; lia|]); cbn [map].
    - cbn [commas flat_map app]. rewrite (entry_step k v m (chr 125) rest acc Hkv Hins eq_refl). reflexivity.
    - rewrite commas_cons, <- app_comm_cons, <- app_assoc.
      rewrite (entry_step k v m (chr 44) _ acc Hkv Hins eq_refl).
      change (bz (chr 44) =? 125) with false. change (bz (chr 44) =? 44) with true. cbn iota.
      rewrite (nonempty_vstart _ _ _ _ (vstart_entry e (Ho e (or_introl eq_refl)))).
      rewrite (IH m e (acc ++ [(k, v)]) rest); [|cbn [length] in Hm; lia|apply Ho; left; reflexivity|intros z Hz; apply Ho; right; exact Hz|exact Hwf].
      rewrite <- app_assoc. reflexivity.
  Qed.
End LOOPS.

(** in front of anything that continues no number; inside arrays and objects that is `,` `]` `}` `:` *)
Lemma parse_to_json v : rt v -> forall fuel rest, (length (to_json v) <= fuel)%nat -> ends_number rest -> parse fuel (to_json v ++ rest) = POk v rest.
Proof.
  induction v as [v IH] using val_depth_ind. intros Hrt fuel rest Hf Hs.
  pose proof (vstart_nonempty _ (vstart_json _ Hrt)) as Hne. destruct fuel as [|fuel]; [lia|].
  destruct Hrt as [|b|z|s|s|a Ha|o Ho Hwf].
  - reflexivity.
  - destruct b; reflexivity.
  - change (to_json (Num (int_or_big z))) with (show_num (int_or_big z)). rewrite show_int_or_big.
    destruct (dec_first z) as (c & r & E & HC). rewrite E at 1. cbn [app]. rewrite (parse_number fuel c _ HC), app_comm_cons, <- E.
    rewrite (parse_num_print_rest z rest Hs). reflexivity.
  - pose proof (text_roundtrip s rest) as T. change (to_json (TStr s)) with (write_utf8 s). unfold write_utf8 in *. cbn [app] in *.
    rewrite parse_tstr, T. reflexivity.
  - change (to_json (BStr s)) with (write_bytes s). unfold write_bytes. rewrite <- !app_assoc. cbn [asc of_ascii map app].
    rewrite parse_bstr, bytes_roundtrip_go; [reflexivity|].
    rewrite app_length. pose proof (flat_map_length_ge (write_byte false) s (write_byte_not_nil false)). lia.
  - rewrite Forall_forall in Ha. rewrite to_json_arr in *.
    rewrite <- !app_assoc. cbn [app]. destruct a as [|x a]; [apply parse_arr_empty|].
    pose proof (join_length_count (map to_json (x :: a))) as C. rewrite map_length in C.
    rewrite !app_length in Hf. cbn [length] in Hf, C.
    assert (OK : forall y, In y (x :: a) -> item_ok fuel y).
    { intros y Hy. split; [apply vstart_json, Ha, Hy|]. intros rest' Hs'. apply IH; [apply depth_arr_in, Hy|apply Ha, Hy| |apply stops_ends_number, Hs'].
      pose proof (join_length_in _ _ (in_map to_json _ _ Hy)). lia. }
    cbn [map join]. rewrite <- app_assoc. rewrite parse_arr_items by (apply OK; left; reflexivity).
    apply (arr_items_ok fuel a fuel x [] rest); [lia|apply OK; left; reflexivity|intros y Hy; apply OK; right; exact Hy].
  - rewrite Forall_forall in Ho. rewrite to_json_obj in *.
    rewrite <- !app_assoc. cbn [app]. destruct o as [|kv o]; [apply parse_obj_empty|].
    pose proof (join_length_count (map entry (kv :: o))) as C. rewrite map_length in C.
    rewrite !app_length in Hf. cbn [length] in Hf, C.
    assert (OK : forall e, In e (kv :: o) -> entry_ok fuel e).
    { intros e He. destruct (Ho e He) as [Rk Rv]. destruct (depth_obj_in e _ He) as [Dk Dv].
      pose proof (join_length_in _ _ (in_map entry _ _ He)) as L. unfold entry at 1, entry_f in L. rewrite app_length in L. cbn [length] in L.
      split; (split; [apply vstart_json; assumption|]); intros rest' Hs'; (apply IH; [assumption|assumption|lia|apply stops_ends_number, Hs']). }
    cbn [map join]. rewrite <- app_assoc. rewrite parse_obj_entries by (apply vstart_entry with (fuel := fuel), OK; left; reflexivity).
    apply (obj_entries_ok fuel o fuel kv [] rest); [lia|apply OK; left; reflexivity|intros e He; apply OK; right; exact He|exact Hwf].
Qed.

Theorem json_value_roundtrip v : rt v -> parse_single (to_json v) = POk v [].
Proof.
  intros H. unfold parse_single.
  pose proof (vstart_json v H) as V. pose proof (vstart_ws _ [] V) as WS. rewrite app_nil_r in WS. rewrite WS.
  destruct V as (c & r & E & _). rewrite E. rewrite <- E.
  pose proof (parse_to_json v H (S (length (to_json v))) [] ltac:(lia) I) as R.
  rewrite app_nil_r in R. rewrite R. reflexivity.
Qed.

Theorem json_value_roundtrip_rest v rest : rt v -> stops rest ->
  parse (S (length (to_json v))) (to_json v ++ rest) = POk v rest.
Proof. intros H Hs. apply parse_to_json; [exact H|lia|apply stops_ends_number, Hs]. Qed.

(** objects whose keys are pairwise different (by [==]) are [wf_obj] *)
Lemma insert_fresh acc k v : (forall kv, In kv acc -> val_eqb k (fst kv) = false) -> insert acc k v = acc ++ [(k, v)].
Proof.
  induction acc as [|[k' x'] acc IH]; intros H; [reflexivity|]. cbn [insert].
  pose proof (H (k', x') (or_introl eq_refl)) as E. cbn [fst] in E. rewrite E. rewrite andb_false_r. cbn [app]. f_equal. apply IH. intros kv Hkv. apply H. right. exact Hkv.
Qed.

Lemma wf_distinct o : forall acc,
  (forall pre k v post, o = pre ++ (k, v) :: post -> forall kv, In kv (acc ++ pre) -> val_eqb k (fst kv) = false) -> wf_from acc o.
Proof.
  induction o as [|[k v] o IH]; intros acc H; [exact I|]. cbn [wf_from]. split.
  - apply insert_fresh. intros kv Hkv. apply (H [] k v o eq_refl). rewrite app_nil_r. exact Hkv.
  - apply IH. intros pre k2 v2 post E kv Hkv. apply (H ((k, v) :: pre) k2 v2 post); [rewrite E; reflexivity|].
    rewrite <- app_assoc in Hkv. exact Hkv.
Qed.

Example rt_ex :
  let v := Obj [(TStr (of_ascii [97]), Arr [Num (Int 1); Null; BStr (of_ascii [255; 0])]);
                (Num (Int 2), TStr (of_ascii [34; 92; 10]));
                (Arr [], Obj [(Bool true, Num (Big (2 ^ 70)))])] in
  rt v /\ parse_single (to_json v) = POk v [].
Proof.
  cbv zeta. assert (R : rt (Obj [(TStr (of_ascii [97]), Arr [Num (Int 1); Null; BStr (of_ascii [255; 0])]);
                (Num (Int 2), TStr (of_ascii [34; 92; 10]));
                (Arr [], Obj [(Bool true, Num (Big (2 ^ 70)))])])).
  { apply rt_obj.
    - repeat constructor; cbn [fst snd]; try (exact (rt_int 1)); try (exact (rt_int 2)); try (exact (rt_int (2 ^ 70))).
    - vm_compute. auto. }
  split; [exact R|]. apply json_value_roundtrip. exact R.
Qed.
