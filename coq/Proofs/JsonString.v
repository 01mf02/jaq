(** Strings survive print-then-parse: for arbitrary bytes (control characters, quotes, invalid UTF-8). *)
From Coq Require Import ZArith Bool List Lia.
From Coq Require Import Init.Byte.
From JaqV Require Import Base.Bytes Json.Write Json.Read Proofs.DecodeLaws.
Import ListNotations.

Definition enc_text (c : byte) : bytes := if is_special c then write_byte true c else [c].

(** one byte of a text string, and of a byte string: the reader undoes the writer in one step, for every continuation *)
Lemma text_step c : forall n rest acc,
  parse_string (S n) false (enc_text c ++ rest) acc = parse_string n false rest (c :: acc).
Proof. destruct c; intros n rest acc; reflexivity. Qed.

Lemma bytes_step c : forall n rest acc,
  parse_string (S n) true (write_byte false c ++ rest) acc = parse_string n true rest (c :: acc).
Proof. destruct c; intros n rest acc; reflexivity. Qed.

(** a whole string of either kind, up to the closing quote *)
Lemma string_roundtrip_go isbytes enc :
  (forall c n rest acc, parse_string (S n) isbytes (enc c ++ rest) acc = parse_string n isbytes rest (c :: acc)) ->
  forall s n rest acc, (length s <= n)%nat ->
  parse_string (S n) isbytes (flat_map enc s ++ zb 34 :: rest) acc = POk (rev acc ++ s) rest.
Proof.
  intros step s n rest acc Hn. replace (S n) with (length s + S (n - length s))%nat by lia.
  rewrite (decode_acc enc (fun n => parse_string n isbytes) step). cbn. rewrite rev_app_distr, rev_involutive. reflexivity.
Qed.

Lemma bytes_roundtrip_go s n rest acc : (length s <= n)%nat ->
  parse_string (S n) true (flat_map (write_byte false) s ++ zb 34 :: rest) acc = POk (rev acc ++ s) rest.
Proof. apply string_roundtrip_go, bytes_step. Qed.

Lemma write_byte_not_nil uni c : write_byte uni c <> [].
Proof.
  unfold write_byte. repeat (destruct (_ =? _)%Z; [discriminate|]). destruct (_ || _); [destruct uni|]; discriminate.
Qed.

(** [write_utf8] then [parse_string]: identity on every byte string *)
Lemma text_roundtrip s rest :
  match write_utf8 s ++ rest with
  | q :: body => parse_string (S (length body)) false body [] = POk s rest
  | [] => False
  end.
Proof.
  unfold write_utf8. cbn [app]. fold enc_text. rewrite <- app_assoc. apply (string_roundtrip_go false enc_text text_step).
  rewrite app_length. etransitivity; [apply (flat_map_length_ge enc_text)|apply Nat.le_add_r].
  intros c. unfold enc_text. destruct (is_special c); [apply write_byte_not_nil | discriminate].
Qed.
