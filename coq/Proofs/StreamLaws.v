(** The counting loops behind limit/skip/first (Core/Natives.v), one round at a time: [limit] followed by [skip] gives the
    stream back, and [limit] never looks beyond the k-th item.  First, what the loops do to their counter: comparison and
    arithmetic of the values that are machine integers. *)
From Coq Require Import ZArith List Lia FunctionalExtensionality.
From JaqV Require Import Base.F64 Base.Stream Val.Num Val.Val Val.Err Val.Arith Core.Natives Proofs.MonadLaws.
Import ListNotations.
Local Open Scope Z_scope.

Lemma thunk_eta {A} (k : unit -> A) : (fun _ : unit => k tt) = k.
Proof. apply functional_extensionality. intros []. reflexivity. Qed.

Lemma val_cmp_int a b : val_cmp (vint a) (vint b) = Z.compare a b.
Proof. reflexivity. Qed.

Lemma val_leb_int a b : val_leb (vint a) (vint b) = (a <=? b).
Proof. reflexivity. Qed.

Lemma val_ltb_int a b : val_ltb (vint a) (vint b) = (a <? b).
Proof. reflexivity. Qed.

Lemma vsub_int a b : in_isize (a - b) = true -> vsub (vint a) (vint b) = Ok (vint (a - b)).
Proof. intros H. cbn. unfold int_or_big. rewrite H. reflexivity. Qed.

Lemma vadd_int a b : in_isize (a + b) = true -> vadd (vint a) (vint b) = Ok (vint (a + b)).
Proof. intros H. cbn. unfold int_or_big. rewrite H. reflexivity. Qed.

Lemma in_isize_pred k : in_isize k = true -> 0 < k -> in_isize (k - 1) = true.
Proof.
  unfold in_isize, isize_min, isize_max.
  assert (T63 : two63 = 9223372036854775808) by reflexivity.
  generalize dependent two63. intros t63 T63 H Hk.
  apply andb_prop in H. destruct H as [A B]. apply Z.leb_le in A. apply Z.leb_le in B.
  apply andb_true_intro. split; apply Z.leb_le; lia.
Qed.

(** ** one round of the counting loops, for any count; at a count <= 0 they stop, at a machine integer above they count down *)
Lemma limit_go_eq {A} n (s : str A) :
  limit_go n s = if negb (match val_cmp n (vint 0) with Gt => true | _ => false end) then SNil
                 else match vsub n (vint 1) with
                      | Err e => serr e
                      | Ok n' => match s with SCons x t => SCons x (fun _ => limit_go n' (t tt)) | _ => s end
                      end.
Proof. destruct s; reflexivity. Qed.

Lemma skip_go_eq {A} n (s : str A) :
  skip_go n s = if negb (match val_cmp n (vint 0) with Gt => true | _ => false end) then s
                else match vsub n (vint 1) with
                     | Err e => serr e
                     | Ok n' => match s with SCons _ t => skip_go n' (t tt) | _ => s end
                     end.
Proof. destruct s; reflexivity. Qed.

Lemma limit_go_nonpos {A} k (s : str A) : k <= 0 -> limit_go (vint k) s = SNil.
Proof. intros H. rewrite limit_go_eq, val_cmp_int. destruct (Z.compare_spec k 0); try lia; reflexivity. Qed.

Lemma limit_go_pos {A} k (s : str A) : in_isize k = true -> 0 < k ->
  limit_go (vint k) s = match s with SCons x t => SCons x (fun _ => limit_go (vint (k - 1)) (t tt)) | _ => s end.
Proof.
  intros Hk H. rewrite limit_go_eq, val_cmp_int, vsub_int by (apply in_isize_pred; assumption).
  destruct (Z.compare_spec k 0); try lia; reflexivity.
Qed.

Lemma skip_go_nonpos {A} k (s : str A) : k <= 0 -> skip_go (vint k) s = s.
Proof. intros H. rewrite skip_go_eq, val_cmp_int. destruct (Z.compare_spec k 0); try lia; reflexivity. Qed.

Lemma skip_go_pos {A} k (s : str A) : in_isize k = true -> 0 < k ->
  skip_go (vint k) s = match s with SCons _ t => skip_go (vint (k - 1)) (t tt) | _ => s end.
Proof.
  intros Hk H. rewrite skip_go_eq, val_cmp_int, vsub_int by (apply in_isize_pred; assumption).
  destruct (Z.compare_spec k 0); try lia; reflexivity.
Qed.

(** [limit] followed by [skip] reproduces the stream, for every machine-integer count and every
    stream (also one that ends in an error, a break, or runs out of fuel) *)
Lemma limit_skip_go {A} (s : str A) : forall k, in_isize k = true ->
  sapp (limit_go (vint k) s) (fun _ => skip_go (vint k) s) = s.
Proof.
  induction s as [|x t IH|e| |]; intros k Hk; destruct (Z.le_gt_cases k 0) as [L|L].
  all: try (rewrite limit_go_nonpos, skip_go_nonpos by exact L; reflexivity).
  all: rewrite limit_go_pos, skip_go_pos by assumption; try reflexivity.
  cbn [sapp]. apply SCons_ext, IH, in_isize_pred; assumption.
Qed.

Lemma limit_skip {A} (s : str A) k : in_isize k = true ->
  sapp (limit (vint k) (fun _ => s)) (fun _ => skip (vint k) s) = s.
Proof.
  intros Hk. unfold limit, skip. rewrite val_leb_int.
  destruct (Z.leb_spec k 0) as [L|L]; [reflexivity|apply limit_skip_go, Hk].
Qed.

Lemma limit_nonpos {A} (s : unit -> str A) k : k <= 0 -> limit (vint k) s = SNil.
Proof. intros H. unfold limit. rewrite val_leb_int. destruct (Z.leb_spec k 0); [reflexivity | lia]. Qed.

Lemma skip_nonpos {A} (s : str A) k : k <= 0 -> skip (vint k) s = s.
Proof. intros H. unfold skip. rewrite val_leb_int. destruct (Z.leb_spec k 0); [reflexivity | lia]. Qed.

Lemma first_is_limit_1 {A} (s : str A) : first_s s = limit (vint 1) (fun _ => s).
Proof.
  unfold limit. destruct s as [|x t|e| |]; try reflexivity.
  cbn. apply SCons_ext. destruct (t tt); reflexivity.
Qed.

(** the first error ends the stream once: nothing follows an exception *)
Lemma sapp_exn {A} e (r : unit -> str A) : sapp (SExn e) r = SExn e.
Proof. reflexivity. Qed.

Lemma sbind_exn {A B} e (f : A -> str B) : sbind (SExn e) f = SExn e.
Proof. reflexivity. Qed.

(** [limit] never looks at the stream beyond the k-th item: of a stream that begins with the items [l] it yields the
    first k of them and ends, whatever the remainder [r] is *)
Lemma limit_go_of_list {A} (l : list A) r : forall k, in_isize k = true -> k <= Z.of_nat (length l) ->
  limit_go (vint k) (sapp (of_list l) r) = of_list (firstn (Z.to_nat k) l).
Proof.
  induction l as [|x l IH]; intros k Hk Hl; cbn [length] in Hl; (destruct (Z.le_gt_cases k 0) as [L|L];
    [rewrite limit_go_nonpos by exact L; replace (Z.to_nat k) with O by lia; reflexivity|]); [lia|].
  rewrite limit_go_pos by assumption. replace (Z.to_nat k) with (S (Z.to_nat (k - 1))) by lia.
  cbn [of_list sapp firstn]. apply SCons_ext, IH; [apply in_isize_pred; assumption|lia].
Qed.

Lemma limit_of_list {A} (l : list A) r k : in_isize k = true -> k <= Z.of_nat (length l) ->
  limit (vint k) (fun _ => sapp (of_list l) r) = of_list (firstn (Z.to_nat k) l).
Proof.
  intros Hk Hl. unfold limit. rewrite val_leb_int. destruct (Z.leb_spec k 0) as [L|L]; [|apply limit_go_of_list; assumption].
  replace (Z.to_nat k) with O by lia. reflexivity.
Qed.

Lemma limit_go_prefix {A} (pre : list A) : forall k (r1 r2 : str A), in_isize k = true -> k <= Z.of_nat (length pre) ->
  limit_go (vint k) (sapp (of_list pre) (fun _ => r1)) = limit_go (vint k) (sapp (of_list pre) (fun _ => r2)).
Proof. intros k r1 r2 Hk Hl. rewrite !limit_go_of_list by assumption. reflexivity. Qed.
