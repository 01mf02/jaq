(** Threads that share only an immutable value (the compiled filter, here: the function that gives every thread its
    stream) cannot influence each other: under every interleaving each thread obtains what it obtains alone. *)
From Coq Require Import List Lia.
From JaqV Require Import Base.Stream.
Import ListNotations.

Section Threads.
  Variable A : Type.

  (** one execution in progress: what remains to be produced, what has been produced, how it ended *)
  Record thr := { t_rest : str A; t_out : list A; t_fin : option fin }.

  (** one step of a thread: pull the next item of its own stream *)
  Definition pull (t : thr) : thr :=
    match t_fin t with
    | Some _ => t
    | None =>
        match t_rest t with
        | SCons x k => {| t_rest := k tt; t_out := t_out t ++ [x]; t_fin := None |}
        | SNil => {| t_rest := SNil; t_out := t_out t; t_fin := Some FEnd |}
        | SExn e => {| t_rest := SNil; t_out := t_out t; t_fin := Some (FExn e) |}
        | SBot => {| t_rest := SNil; t_out := t_out t; t_fin := Some FBot |}
        | SUnk => {| t_rest := SNil; t_out := t_out t; t_fin := Some FUnk |}
        end
    end.

  (** the scheduler lets thread [i] make one step *)
  Fixpoint step (ts : list thr) (i : nat) : list thr :=
    match ts, i with
    | [], _ => []
    | t :: r, O => pull t :: r
    | t :: r, S i => t :: step r i
    end.

  (** what a thread will have yielded in the end *)
  Definition result (t : thr) : list A * fin :=
    match t_fin t with
    | Some f => (t_out t, f)
    | None => let '(l, f) := collect (t_rest t) in (t_out t ++ l, f)
    end.

  Lemma pull_result t : result (pull t) = result t.
  Proof.
    unfold pull, result. destruct (t_fin t) as [f|] eqn:E; [rewrite E; reflexivity|].
    destruct (t_rest t) as [|x k|e| |]; cbn [t_fin t_out t_rest collect]; try (rewrite app_nil_r; reflexivity).
    destruct (collect (k tt)) as [l f]. rewrite <- app_assoc. reflexivity.
  Qed.

  Lemma step_result ts : forall i, map result (step ts i) = map result ts.
  Proof.
    induction ts as [|t r IH]; intros i; [reflexivity|]. destruct i as [|i]; cbn [step map].
    - rewrite pull_result. reflexivity.
    - rewrite IH. reflexivity.
  Qed.

  (** whatever the schedule, the final results are those of the isolated runs *)
  Theorem schedule_independent (sched : list nat) : forall ts, map result (fold_left step sched ts) = map result ts.
  Proof.
    induction sched as [|i sched IH]; intros ts; [reflexivity|]. cbn [fold_left]. rewrite IH. apply step_result.
  Qed.

  (** started on the streams [f x] of a shared function [f] (the compiled filter run on the thread's own input), every
      thread's final result is [collect (f x)] - the isolated run *)
  Definition start (f : nat -> str A) (n : nat) : list thr :=
    map (fun i => {| t_rest := f i; t_out := []; t_fin := None |}) (seq 0 n).

  Theorem concurrent_is_isolated (f : nat -> str A) n sched :
    map result (fold_left step sched (start f n)) = map (fun i => collect (f i)) (seq 0 n).
  Proof.
    rewrite schedule_independent. unfold start. rewrite map_map. apply map_ext. intros i.
    unfold result. cbn [t_fin t_rest t_out]. destruct (collect (f i)) as [l fi]. reflexivity.
  Qed.

  (** and a thread that has been scheduled often enough has finished: nothing is lost *)
  Lemma pull_progress t : t_fin t = None -> t_fin (pull t) <> None \/ length (t_out (pull t)) = S (length (t_out t)).
  Proof.
    intros E. unfold pull. rewrite E. destruct (t_rest t); cbn; try (left; discriminate). right. rewrite app_length. cbn. lia.
  Qed.
End Threads.
