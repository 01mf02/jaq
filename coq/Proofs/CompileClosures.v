(** Compiler correctness as in Proofs/CompileParams.v, with filter parameters (`def f(g; $a): body`, calls `f(t; s)`), and
    with object and string construction, `..`, `if` without `else` and patterns with one level of variables.  A filter
    argument is not evaluated at the call: the named semantics binds the parameter to a closure (argument term, environment
    and definitions of the caller), the compiled code to the compiled argument with the caller's context, reached by
    position.  The two are related step-indexed ([brel]): at fuel n when they compute the same stream for every smaller fuel. *)
From Coq Require Import ZArith Bool List Lia.
From JaqV Require Import Base.Bytes Base.Stream Val.Num Val.Val Val.Err Val.Arith Val.Index Core.Syntax Core.Compile Core.Natives Core.Run
  Proofs.MonadLaws Proofs.CompileCommon.
From JaqV Require Proofs.CompileCorrect Proofs.GetpathLaws.
Import ListNotations.

Lemma Forall2_imp {A B} (R R' : A -> B -> Prop) l r : (forall a b, R a b -> R' a b) -> Forall2 R l r -> Forall2 R' l r.
Proof. intros H. induction 1; constructor; auto. Qed.
Lemma Forall2_length {A B} (R : A -> B -> Prop) l r : Forall2 R l r -> length l = length r.
Proof. induction 1; cbn; congruence. Qed.
Lemma Forall2_nth_l {A B} (R : A -> B -> Prop) l r : Forall2 R l r -> forall i a, nth_error l i = Some a ->
  exists b, nth_error r i = Some b /\ R a b.
Proof.
  induction 1 as [|x y l r Hxy _ IH]; intros i a Hn; [destruct i; discriminate|]. destruct i as [|i]; cbn in *.
  - injection Hn as <-. eauto.
  - apply IH. exact Hn.
Qed.

Section CF.
  Variable g : genv.
  Variable d : val -> bytes.
  Variable nr : nat -> bytes -> list narg -> val -> option (str val).
  Notation run := (run d nr).
  Notation explode := (explode d nr).

  Inductive nbind :=
  | NV (v : val)
  | NL (l : nat)
  | NF (t : pterm) (rho : list (cbind * nbind)) (phi : list fent)
  with fent :=
  | FDef (f : bytes) (ps : list bytes) (body : pterm) (rd : list (cbind * nbind)) (phio : list fent)
  | FPar (p : bytes).
  Definition nenv := list (cbind * nbind).

  Fixpoint lookup (rho : nenv) (x : cbind) : option nbind :=
    match rho with [] => None | (y, a) :: r => if cbind_eqb x y then Some a else lookup r x end.

  Inductive ent := EDef (f : bytes) (ps : list bytes) (body : pterm) (rd : nenv) (phio : list fent) | EPar (p : bytes).
  Fixpoint find_ent (f : bytes) (ar : nat) (phi : list fent) : option ent :=
    match phi with
    | [] => None
    | FDef f' ps body rd phio :: r =>
        if bytes_eqb f f' && Nat.eqb ar (length ps) then Some (EDef f' ps body rd phio) else find_ent f ar r
    | FPar p :: r => if bytes_eqb f p && Nat.eqb ar 0 then Some (EPar p) else find_ent f ar r
    end.

  Definition pname (p : bytes) : cbind := if is_var_name p then CVar p else CFun p.
  Definition fparams (ps : list bytes) : list bytes := filter (fun p => negb (is_var_name p)) ps.

  Fixpoint mkenv (ps : list bytes) (args : list pterm) (ys : list val) (rho : nenv) (phi : list fent) (acc : nenv) : nenv :=
    match ps, args with
    | p :: ps, a :: args =>
        if is_var_name p then
          match ys with
          | y :: ys => mkenv ps args ys rho phi ((CVar p, NV y) :: acc)
          | [] => acc
          end
        else mkenv ps args ys rho phi ((CFun p, NF a rho phi) :: acc)
    | _, _ => acc
    end.

  Definition phi_body (f : bytes) (ps : list bytes) (body : pterm) (rd : nenv) (phio : list fent) : list fent :=
    FDef f ps body rd phio :: map FPar (rev (fparams ps)) ++ phio.

  (** definitions in front of a term cost no fuel: the compiled term is that of the term after them *)
  Fixpoint strip (t : pterm) : list (bytes * list bytes * pterm) * pterm :=
    match t with
    | PDef [PDefn f ps body] t' => let '(ds, t0) := strip t' in ((f, ps, body) :: ds, t0)
    | _ => ([], t)
    end.
  Definition push_defs (ds : list (bytes * list bytes * pterm)) (rho : nenv) (phi : list fent) : list fent :=
    fold_left (fun ph fb => FDef (fst (fst fb)) (snd (fst fb)) (snd fb) rho ph :: ph) ds phi.

  Notation fold_go := CompileCorrect.fold_go.

  (** patterns with one level of variables only: `[$a, $b]`, `{k: $a, ...}` *)
  Inductive pkey := KI (i : Z) | KT (k : pterm).
  Fixpoint arr_items (i : Z) (ps : list ppat) : option (list (pkey * bytes)) :=
    match ps with
    | [] => Some []
    | PPVar x :: r => option_map (cons (KI i, x)) (arr_items (i + 1)%Z r)
    | _ :: _ => None
    end.
  Fixpoint obj_items (kps : list (pterm * ppat)) : option (list (pkey * bytes)) :=
    match kps with
    | [] => Some []
    | (k, PPVar x) :: r => option_map (cons (KT k, x)) (obj_items r)
    | _ :: _ => None
    end.
  Definition flat_items (p : ppat) : option (list (pkey * bytes)) :=
    match p with PPVar _ => None | PPArr ps => arr_items 0%Z ps | PPObj kps => obj_items kps end.
  Definition pbindv (xs : list bytes) (ys : list val) : nenv := rev (combine (map CVar xs) (map NV ys)).

  (** the semantics of [sum_or], which adds up the entries of an object or the parts of a string: [one] is the semantics of
      a piece, [rest] the sum one level of fuel below *)
  Definition sum_body {X} (one : X -> str val) (rest : list X -> str val) (dflt : val) (xs : list X) : str val :=
    match xs with
    | [] => sone dflt
    | [x] => one x
    | x :: r => sbind (sbind (rest [x]) (fun a => smap (fun y => (a, y)) (rest r)))
                  (fun xy => of_res_opt (math_run Add (fst xy) (snd xy)))
    end.

  (** `{$x}`, `{k}` (the value is `.[k]`), `{k: v}` *)
  Definition ent_sem (S : pterm -> str val) (m : nat) (kv : pterm * option pterm) : str val :=
    let single := fun (ks vs : str val) => smap (fun kv => from_map [kv]) (sbind ks (fun a => smap (fun y => (a, y)) vs)) in
    match kv with
    | (PVar x, None) => single (match m with O => SBot | S _ => sone (TStr (tl x)) end) (S (PVar x))
    | (k, None) => single (S k) (S (PPath PId [(PIndex k, false)]))
    | (k, Some v') => single (S k) (S v')
    end.

  Definition part_sem (S : pterm -> str val) (m : nat) (p : strpart) : str val :=
    match p with
    | SPStr x => sone (TStr x)
    | SPTerm f => sbind (S f) (fun y => match m with O => SBot | S _ => sone (into_string d y) end)
    end.

  Fixpoint sem (n : nat) (t : pterm) (rho : nenv) (phi0 : list fent) (lab : nat) (v : val) {struct n} : str val :=
    match n with
    | O => SBot
    | S n =>
        let '(ds, t0) := strip t in
        let phi := push_defs ds rho phi0 in
        let cart := fun l r => sbind (sem n l rho phi lab v) (fun x => smap (fun y => (x, y)) (sem n r rho phi lab v)) in
        match t0 with
        | PId => sone v
        | PNum x => sone (match int_literal x with Some i => vint i | None => Num (from_str x) end)
        | PVar x => match lookup rho (CVar x) with Some (NV a) => sone a | _ => SUnk end
        | PBreak x => match lookup rho (CLabel x) with Some (NL l) => SExn (XBreak l) | _ => SUnk end
        | PLabel x t => slabel (S lab) (sem n t ((CLabel x, NL (S lab)) :: rho) phi (S lab) v)
        | PCall f args =>
            match find_ent f (length args) phi with
            | Some (EDef f' ps body rd phio) =>
                sbind (svals n args ps rho phi lab v)
                  (fun ys => sem n body (mkenv ps args ys rho phi [] ++ rd) (phi_body f' ps body rd phio) lab v)
            | Some (EPar p) =>
                match lookup rho (CFun p) with
                | Some (NF t rho' phi') => sem n t rho' phi' lab v
                | _ => SUnk
                end
            | None => SUnk
            end
        | PNeg t => sbind (sem n t rho phi lab v) (fun x => of_res (vneg x))
        | PArr (Some t) => collect_then (sem n t rho phi lab v) (fun l => sone (Arr l))
        | PTryCatch t (Some c) => stry (sem n t rho phi lab v) (fun e => sem n c rho phi lab (err_val d e))
        | PIte [(i, th)] (Some el) => sbind (sem n i rho phi lab v) (fun x => sem n (if as_bool x then th else el) rho phi lab v)
        | PBinOp l op r =>
            match op with
            | BPipe None => sbind (sem n l rho phi lab v) (fun y => sem n r rho phi lab y)
            | BPipe (Some (PPVar x)) => sbind (sem n l rho phi lab v) (fun y => sem n r ((CVar x, NV y) :: rho) phi lab v)
            | BPipe (Some p) =>
                match flat_items p with
                | Some its =>
                    sbind (sem n l rho phi lab v) (fun y =>
                      sbind (sflat n its rho phi lab y) (fun ys => sem n r (pbindv (map snd its) ys ++ rho) phi lab v))
                | None => SUnk
                end
            | BComma => sapp (sem n l rho phi lab v) (fun _ => sem n r rho phi lab v)
            | BAlt => match sfilter as_bool (sem n l rho phi lab v) with SNil => sem n r rho phi lab v | s => s end
            | BMath o => sbind (cart l r) (fun xy => of_res_opt (math_run o (fst xy) (snd xy)))
            | BCmp o => smap (fun xy => Bool (cmp_run o (fst xy) (snd xy))) (cart l r)
            | BOr => sbind (sem n l rho phi lab v) (fun x => if Bool.eqb (as_bool x) true then sone (Bool true)
                                                         else smap (fun y => Bool (as_bool y)) (sem n r rho phi lab v))
            | BAnd => sbind (sem n l rho phi lab v) (fun x => if Bool.eqb (as_bool x) false then sone (Bool false)
                                                          else smap (fun y => Bool (as_bool y)) (sem n r rho phi lab v))
            | _ => SUnk
            end
        | PPath t path => sbind (sem n t rho phi lab v) (fun y => sbind (sexplode n path rho phi lab v) (fun ps => path_run ps y))
        | PFold name xs (PPVar x) (init :: upd :: rest) =>
            let xsv := match n with O => SBot | S n' => sem n' xs rho phi lab v end in
            let step := fun y acc => sem n upd ((CVar x, NV y) :: rho) phi lab acc in
            if bytes_eqb name name_reduce then
              match rest with
              | [] => sbind (sem n init rho phi lab v) (fold_go step (fun _ _ => SNil) sone xsv)
              | _ => SUnk
              end
            else if bytes_eqb name name_foreach then
              match rest with
              | [] => sbind (sem n init rho phi lab v) (fold_go step (fun _ z => sone z) (fun _ => SNil) xsv)
              | [proj] => sbind (sem n init rho phi lab v) (fold_go step (fun y z => sem n proj ((CVar x, NV y) :: rho) phi lab z) (fun _ => SNil) xsv)
              | _ => SUnk
              end
            else SUnk
        | PRecurse => recurse_vals n v
        | PIte [(i, th)] None => sbind (sem n i rho phi lab v) (fun x => sem n (if as_bool x then th else PId) rho phi lab v)
        | PObj kvs => sum_body (ent_sem (fun t => sem n t rho phi lab v) n) (fun l => sobj n l rho phi lab v) (Obj []) kvs
        | PStr None parts => sum_body (part_sem (fun t => sem n t rho phi lab v) n) (fun l => sstr n l rho phi lab v) (TStr []) parts
        | _ => SUnk
        end
    end

  (** all combinations, first component outermost; the keys are evaluated on the matched value [y] *)
  with sflat (n : nat) (its : list (pkey * bytes)) (rho : nenv) (phi : list fent) (lab : nat) (y : val) {struct n} : str (list val) :=
    match n with
    | O => SBot
    | S m =>
        match its with
        | [] => sone []
        | (key, _) :: rest =>
            sbind (match key with
                   | KI i => match m with O => SBot | S _ => sone (vint i) end
                   | KT k => sem m k rho phi lab y
                   end) (fun i =>
              sbind (of_res (vindex y i)) (fun xv =>
                match rest with
                | [] => sone [xv]
                | _ => smap (cons xv) (sflat m rest rho phi lab y)
                end))
        end
    end

  with sobj (n : nat) (kvs : list (pterm * option pterm)) (rho : nenv) (phi : list fent) (lab : nat) (v : val) {struct n} : str val :=
    match n with
    | O => SBot
    | S m => sum_body (ent_sem (fun t => sem m t rho phi lab v) m) (fun l => sobj m l rho phi lab v) (Obj []) kvs
    end
  with sstr (n : nat) (parts : list strpart) (rho : nenv) (phi : list fent) (lab : nat) (v : val) {struct n} : str val :=
    match n with
    | O => SBot
    | S m => sum_body (part_sem (fun t => sem m t rho phi lab v) m) (fun l => sstr m l rho phi lab v) (TStr []) parts
    end

  (** all combinations, first argument outermost; a filter argument is not evaluated but takes its unit of fuel, as in the
      interpreter *)
  with svals (n : nat) (args : list pterm) (ps : list bytes) (rho : nenv) (phi : list fent) (lab : nat) (v : val) {struct n}
    : str (list val) :=
    match n with
    | O => SBot
    | S n =>
        match args, ps with
        | a :: rest, p :: ps' =>
            if is_var_name p then sbind (sem n a rho phi lab v) (fun y => smap (cons y) (svals n rest ps' rho phi lab v))
            else svals n rest ps' rho phi lab v
        | _, _ => sone []
        end
    end

  with sexplode (n : nat) (path : list (ppart * bool)) (rho : nenv) (phi : list fent) (lab : nat) (v : val) {struct n}
    : str (list (vpart * bool)) :=
    match n with
    | O => SBot
    | S n =>
        match path with
        | [] => sone []
        | (p, opt) :: rest =>
            let ps :=
              match p with
              | PIndex i => smap VIndex (sem n i rho phi lab v)
              | PRange None None => sone (VRange None None)
              | PRange (Some f) None => smap (fun x => VRange (Some x) None) (sem n f rho phi lab v)
              | PRange None (Some u) => smap (fun x => VRange None (Some x)) (sem n u rho phi lab v)
              | PRange (Some f) (Some u) =>
                  sbind (sem n f rho phi lab v) (fun x => smap (fun y => VRange (Some x) (Some y)) (sem n u rho phi lab v))
              end in
            sbind ps (fun p' => smap (fun r => (p', opt) :: r) (sexplode n rest rho phi lab v))
        end
    end.

  Inductive frag : list cbind -> list (bytes * nat) -> nat -> pterm -> Prop :=
  | f_id b fs n : frag b fs (S n) PId
  | f_num b fs n x : frag b fs (S n) (PNum x)
  | f_var b fs n x : In (CVar x) b -> frag b fs (S n) (PVar x)
  | f_neg b fs n t : frag b fs n t -> frag b fs (S n) (PNeg t)
  | f_arr b fs n t : frag b fs n t -> frag b fs (S n) (PArr (Some t))
  | f_try b fs n t c : frag b fs n t -> frag b fs n c -> frag b fs (S n) (PTryCatch t (Some c))
  | f_ite b fs n i th el : frag b fs n i -> frag b fs n th -> frag b fs n el -> frag b fs (S n) (PIte [(i, th)] (Some el))
  | f_pipe b fs n l r : frag b fs n l -> frag b fs n r -> frag b fs (S n) (PBinOp l (BPipe None) r)
  | f_bind b fs n l x r : frag b fs n l -> frag (CVar x :: b) fs n r -> frag b fs (S (S n)) (PBinOp l (BPipe (Some (PPVar x))) r)
  | f_comma b fs n l r : frag b fs n l -> frag b fs n r -> frag b fs (S n) (PBinOp l BComma r)
  | f_alt b fs n l r : frag b fs n l -> frag b fs n r -> frag b fs (S n) (PBinOp l BAlt r)
  | f_math b fs n l o r : frag b fs n l -> frag b fs n r -> frag b fs (S n) (PBinOp l (BMath o) r)
  | f_cmp b fs n l o r : frag b fs n l -> frag b fs n r -> frag b fs (S n) (PBinOp l (BCmp o) r)
  | f_or b fs n l r : frag b fs n l -> frag b fs n r -> frag b fs (S n) (PBinOp l BOr r)
  | f_and b fs n l r : frag b fs n l -> frag b fs n r -> frag b fs (S n) (PBinOp l BAnd r)
  | f_path b fs n t ps : frag b fs n t -> frag_parts b fs n ps -> frag b fs (S n) (PPath t ps)
  | f_reduce b fs n xs x init upd : frag b fs n xs -> frag b fs (S n) init -> frag (CVar x :: b) fs (S n) upd ->
      frag b fs (S (S n)) (PFold name_reduce xs (PPVar x) [init; upd])
  | f_foreach b fs n xs x init upd : frag b fs n xs -> frag b fs (S n) init -> frag (CVar x :: b) fs (S n) upd ->
      frag b fs (S (S n)) (PFold name_foreach xs (PPVar x) [init; upd])
  | f_foreach3 b fs n xs x init upd proj : frag b fs n xs -> frag b fs (S n) init -> frag (CVar x :: b) fs (S n) upd ->
      frag (CVar x :: b) fs (S n) proj -> frag b fs (S (S n)) (PFold name_foreach xs (PPVar x) [init; upd; proj])
  | f_label b fs n x t : frag (CLabel x :: b) fs n t -> frag b fs (S n) (PLabel x t)
  | f_break b fs n x : In (CLabel x) b -> frag b fs (S n) (PBreak x)
  | f_call b fs n f args : In (f, length args) fs -> frag_args b fs n args -> frag b fs (S n) (PCall f args)
  | f_def b fs n f ps body t :
      frag (map pname (rev ps) ++ b) ((f, length ps) :: map (fun p => (p, 0%nat)) (rev (fparams ps)) ++ fs) n body ->
      frag b ((f, length ps) :: fs) (S n) t ->
      frag b fs (S (S n)) (PDef [PDefn f ps body] t)
  | f_recurse b fs n : frag b fs (S n) PRecurse
  | f_ite1 b fs n i th : frag b fs n i -> frag b fs n th -> frag b fs (S n) (PIte [(i, th)] None)
  | f_obj b fs n kvs : frag_kvs b fs n kvs -> frag b fs (S n) (PObj kvs)
  | f_str b fs n parts : frag_strs b fs n parts -> frag b fs (S n) (PStr None parts)
  | f_bind_arr b fs n l xs r : frag b fs (S (S n)) l -> frag (map CVar (rev xs) ++ b) fs (S (S n)) r ->
      frag b fs (S (S (S n))) (PBinOp l (BPipe (Some (PPArr (map PPVar xs)))) r)
  | f_bind_obj b fs n l kxs r : frag b fs (S (S n)) l -> frag_args b fs (S n) (map fst kxs) ->
      frag (map CVar (rev (map snd kxs)) ++ b) fs (S (S n)) r ->
      frag b fs (S (S (S n))) (PBinOp l (BPipe (Some (PPObj (map (fun kx => (fst kx, PPVar (snd kx))) kxs)))) r)
  with frag_args : list cbind -> list (bytes * nat) -> nat -> list pterm -> Prop :=
  | fa_nil b fs n : frag_args b fs n []
  | fa_cons b fs n a r : frag b fs n a -> frag_args b fs n r -> frag_args b fs n (a :: r)
  with frag_parts : list cbind -> list (bytes * nat) -> nat -> list (ppart * bool) -> Prop :=
  | fp_nil b fs n : frag_parts b fs n []
  | fp_index b fs n i o ps : frag b fs n i -> frag_parts b fs n ps -> frag_parts b fs n ((PIndex i, o) :: ps)
  | fp_all b fs n o ps : frag_parts b fs n ps -> frag_parts b fs n ((PRange None None, o) :: ps)
  | fp_from b fs n f o ps : frag b fs n f -> frag_parts b fs n ps -> frag_parts b fs n ((PRange (Some f) None, o) :: ps)
  | fp_upto b fs n u o ps : frag b fs n u -> frag_parts b fs n ps -> frag_parts b fs n ((PRange None (Some u), o) :: ps)
  | fp_both b fs n f u o ps : frag b fs n f -> frag b fs n u -> frag_parts b fs n ps -> frag_parts b fs n ((PRange (Some f) (Some u), o) :: ps)
  with frag_kvs : list cbind -> list (bytes * nat) -> nat -> list (pterm * option pterm) -> Prop :=
  | fk_nil b fs n : frag_kvs b fs n []
  | fk_var b fs n x r : frag b fs n (PVar x) -> frag_kvs b fs n r -> frag_kvs b fs n ((PVar x, None) :: r)
  | fk_key b fs n k r : (forall x, k <> PVar x) -> frag b fs n k -> frag_kvs b fs n r -> frag_kvs b fs n ((k, None) :: r)
  | fk_kv b fs n k v r : frag b fs n k -> frag b fs n v -> frag_kvs b fs n r -> frag_kvs b fs n ((k, Some v) :: r)
  with frag_strs : list cbind -> list (bytes * nat) -> nat -> list strpart -> Prop :=
  | fs_nil b fs n : frag_strs b fs n []
  | fs_lit b fs n x r : frag_strs b fs n r -> frag_strs b fs n (SPStr x :: r)
  | fs_term b fs n f r : frag b fs n f -> frag_strs b fs n r -> frag_strs b fs n (SPTerm f :: r).

  Scheme frag_ind2 := Minimality for frag Sort Prop
    with frag_args_ind2 := Minimality for frag_args Sort Prop
    with frag_parts_ind2 := Minimality for frag_parts Sort Prop
    with frag_kvs_ind2 := Minimality for frag_kvs Sort Prop
    with frag_strs_ind2 := Minimality for frag_strs Sort Prop.
  Combined Scheme frag_mutind from frag_ind2, frag_args_ind2, frag_parts_ind2, frag_kvs_ind2, frag_strs_ind2.

  Definition scoped (b : list cbind) (e : env) : Prop := forall x, In x b -> index_of x (e_vars e) 0 <> None.
  Definition fscoped (fs : list (bytes * nat)) (e : env) : Prop :=
    forall f ar, In (f, ar) fs -> exists fe, find_fun f ar (e_funs e) = Some fe.
  Definition kind_ok (x : cbind) (a : nbind) : Prop :=
    match x, a with CVar _, NV _ | CLabel _, NL _ | CFun _, NF _ _ _ => True | _, _ => False end.

  (** closures are related when they compute the same for every smaller fuel, whatever the labels in force where they are
      called *)
  Definition brel (defs : list term) (fuel : nat) (a : nbind) (b : bind) : Prop :=
    match a, b with
    | NV v, BVar v' => v = v'
    | NL l, BLabel l' => l = l'
    | NF t rho' phi', BFun k vars' =>
        forall fuel', (fuel' < fuel)%nat -> forall lab v,
          run defs fuel' k {| vars := vars'; labels := lab |} v = sem fuel' t rho' phi' lab v
    | _, _ => False
    end.

  Definition agrees (defs : list term) (fuel : nat) (e : env) (c : ctx) (rho : nenv) : Prop :=
    map fst rho = e_vars e
    /\ (exists bs rest, vars c = bs ++ rest /\ Forall2 (brel defs fuel) (map snd rho) bs)
    /\ Forall (fun p => kind_ok (fst p) (snd p)) rho.

  Lemma brel_fuel defs fuel fuel' a b : (fuel' <= fuel)%nat -> brel defs fuel a b -> brel defs fuel' a b.
  Proof. intros Hle. destruct a, b; cbn; auto. intros H f Hf. apply H. lia. Qed.

  Lemma agrees_fuel defs fuel fuel' e c rho : (fuel' <= fuel)%nat -> agrees defs fuel e c rho -> agrees defs fuel' e c rho.
  Proof.
    intros Hle (H1 & (bs & rest & Hv & HF) & H3). split; [exact H1|]. split; [|exact H3]. exists bs, rest. split; [exact Hv|].
    eapply Forall2_imp; [|exact HF]. intros a b. apply brel_fuel. exact Hle.
  Qed.

  Lemma agrees_vars defs fuel e c c' rho : vars c' = vars c -> agrees defs fuel e c rho -> agrees defs fuel e c' rho.
  Proof. intros E (H1 & (bs & rest & Hv & HF) & H3). split; [exact H1|]. split; [|exact H3]. exists bs, rest. rewrite E. auto. Qed.

  Lemma agrees_lookup defs fuel e c rho x i : agrees defs fuel e c rho -> index_of x (e_vars e) 0 = Some i ->
    exists a b, nth_error (vars c) i = Some b /\ lookup rho x = Some a /\ kind_ok x a /\ brel defs fuel a b.
  Proof.
    intros (Hm & (bs & rest & Hv & HF) & Hk) H. rewrite <- Hm in H. destruct (lookup_index rho x i H) as (a & Hn & Hl & Hin).
    destruct (Forall2_nth_l _ _ _ HF i a Hn) as (b & Hb & Rab). exists a, b. split; [|split; [exact Hl|split; [|exact Rab]]].
    - rewrite Hv. rewrite nth_error_app1; [exact Hb|]. apply nth_error_Some. congruence.
    - rewrite Forall_forall in Hk. apply (Hk (x, a) Hin).
  Qed.

  Lemma agrees_push_gen defs fuel e (c c' : ctx) rho x a b :
    vars c' = b :: vars c -> kind_ok x a -> brel defs fuel a b -> agrees defs fuel e c rho ->
    agrees defs fuel (push_var x e) c' ((x, a) :: rho).
  Proof.
    intros Hv Hk Hb (Hm & (bs & rest & Hr & HF) & Hf). split; [|split].
    - cbn [map fst push_var e_vars]. rewrite Hm. reflexivity.
    - exists (b :: bs), rest. rewrite Hv, Hr. split; [reflexivity|]. cbn [map snd]. constructor; assumption.
    - constructor; assumption.
  Qed.

  Definition extends (s s' : cst) : Prop :=
    c_errs s' = c_errs s /\ (length (c_defs s) <= length (c_defs s'))%nat
    /\ forall i, (i < length (c_defs s))%nat -> nth_error (c_defs s') i = nth_error (c_defs s) i.
  Definition covers (s s' : cst) (defs : list term) : Prop :=
    forall i, (length (c_defs s) <= i < length (c_defs s'))%nat -> nth_error defs i = nth_error (c_defs s') i.

  Lemma covers_refl s defs : covers s s defs.
  Proof. exact (CompileCommon.covers_refl s defs). Qed.

  Definition entry_info (fe : fentry) : option (nat * list bool) :=
    match f_kind fe with FParent kinds id | FSibling kinds id _ => Some (id, kinds) | FArg => None end.

  Definition ent_rel (defs : list term) (fuel : nat) (rho : nenv) (fe : fentry) (en : ent) : Prop :=
    match en with
    | EDef f ps body rd phio =>
        f_arity fe = length ps /\ exists id k,
          entry_info fe = Some (id, map is_var_name ps) /\ f_vars fe = length rd /\ (exists pushed, rho = pushed ++ rd)
          /\ nth_error defs id = Some k
          /\ forall fuel', (fuel' < fuel)%nat -> forall c v bs,
               map fst bs = map pname (rev ps) -> Forall (fun p => kind_ok (fst p) (snd p)) bs ->
               (exists cb rest, vars c = cb ++ rest /\ Forall2 (brel defs fuel') (map snd (bs ++ rd)) cb) ->
               run defs fuel' k c v = sem fuel' body (bs ++ rd) (phi_body f ps body rd phio) (labels c) v
    | EPar p =>
        f_kind fe = FArg /\ (f_vars fe <= length rho)%nat
        /\ index_of (CFun p) (map fst rho) 0 = Some (length rho - f_vars fe)%nat
    end.

  Definition funs_ok (defs : list term) (fuel : nat) (fes : list fentry) (rho : nenv) (phi : list fent) : Prop :=
    forall f ar fe, find_fun f ar fes = Some fe -> exists en, find_ent f ar phi = Some en /\ ent_rel defs fuel rho fe en.

  Lemma ent_rel_fuel defs fuel fuel' rho fe en : (fuel' <= fuel)%nat -> ent_rel defs fuel rho fe en -> ent_rel defs fuel' rho fe en.
  Proof.
    intros Hle. destruct en as [f ps body rd phio|p]; cbn [ent_rel]; [|auto].
    intros (A & id & k & I & V & P & T & C). split; [exact A|]. exists id, k. repeat split; auto. intros f'' Hf''. apply C. lia.
  Qed.
  Lemma funs_ok_fuel defs fuel fuel' fes rho phi : (fuel' <= fuel)%nat -> funs_ok defs fuel fes rho phi -> funs_ok defs fuel' fes rho phi.
  Proof. intros Hle H f ar fe Hf. destruct (H f ar fe Hf) as (en & E & R). exists en. split; [exact E|]. eapply ent_rel_fuel; eassumption. Qed.
  Lemma ent_rel_app defs fuel rho (bs : nenv) fe en :
    match en with EPar p => ~ In (CFun p) (map fst bs) | EDef _ _ _ _ _ => True end ->
    ent_rel defs fuel rho fe en -> ent_rel defs fuel (bs ++ rho) fe en.
  Proof.
    destruct en as [f ps body rd phio|p]; cbn [ent_rel]; intros Hn.
    - intros (A & id & k & I & V & (pushed & P) & T & C). split; [exact A|]. exists id, k. repeat split; auto.
      exists (bs ++ pushed). rewrite P, app_assoc. reflexivity.
    - intros (K & V & X). split; [exact K|]. rewrite app_length. split; [lia|].
      rewrite map_app, index_of_skip, X by exact Hn. cbn [option_map]. f_equal. rewrite map_length. lia.
  Qed.
  Lemma funs_push_vars defs fuel fes rho phi (bs : nenv) : Forall (fun p => forall q, fst p <> CFun q) bs ->
    funs_ok defs fuel fes rho phi -> funs_ok defs fuel fes (bs ++ rho) phi.
  Proof.
    intros Hb H f ar fe Hf. destruct (H f ar fe Hf) as (en & E & R). exists en. split; [exact E|]. apply ent_rel_app; [|exact R].
    destruct en as [|p]; [exact I|]. intros Hin. apply in_map_iff in Hin as ([x a] & Ex & Hx). rewrite Forall_forall in Hb. exact (Hb _ Hx p Ex).
  Qed.
  Lemma funs_push defs fuel fes rho phi x a : (forall p, x <> CFun p) ->
    funs_ok defs fuel fes rho phi -> funs_ok defs fuel fes ((x, a) :: rho) phi.
  Proof. intros Hx. apply (funs_push_vars defs fuel fes rho phi [(x, a)]). constructor; [exact Hx|constructor]. Qed.

  Notation bind_vars := (bind_vars d nr).
  Notation bind_pats := (bind_pats d nr).
  Lemma bind_vars_nil defs fuel acc c v : bind_vars defs (S fuel) [] acc c v = sone acc.
  Proof. reflexivity. Qed.
  Lemma bp_nil defs m acc c0 y : bind_pats defs (S m) [] acc c0 y = sone acc.
  Proof. reflexivity. Qed.

  Fixpoint mkctx (kinds : list bool) (cargs : list term) (ys : list val) (c : ctx) (acc : ctx) : ctx :=
    match kinds, cargs with
    | true :: ks, a :: r => match ys with y :: ys' => mkctx ks r ys' c (cons_var y acc) | [] => acc end
    | false :: ks, a :: r => mkctx ks r ys c (cons_fun a c acc)
    | _, _ => acc
    end.

  Definition notfun (x : cbind) : Prop := match x with CFun _ => False | _ => True end.
  Lemma funs_push_xa defs fuel fes rho phi (xa : cbind * nbind) :
    funs_ok defs fuel fes rho phi -> notfun (fst xa) -> funs_ok defs fuel fes (xa :: rho) phi.
  Proof. destruct xa as [x a]. intros H N. apply funs_push; [|exact H]. intros p ->. exact N. Qed.

  Lemma sem_def n f ps body t rho phi lab v :
    sem n (PDef [PDefn f ps body] t) rho phi lab v = sem n t rho (FDef f ps body rho phi :: phi) lab v.
  Proof. destruct n; [reflexivity|]. cbn [sem strip]. destruct (strip t) as [ds t0]. reflexivity. Qed.

  Definition closures_sim : sim :=
    {| NE := nenv * list fent;
       Sem := fun n t E => sem n t (fst E) (snd E); SemX := fun n ps E => sexplode n ps (fst E) (snd E);
       bindv := fun x y E => ((CVar x, NV y) :: fst E, snd E); bindl := fun x l E => ((CLabel x, NL l) :: fst E, snd E);
       Inv := fun defs fuel e c E => agrees defs fuel e c (fst E) /\ funs_ok defs fuel (e_funs e) (fst E) (snd E);
       Ext := extends; Cov := covers |}.

  Lemma closures_sim_ok : sim_ok d nr closures_sim.
  Proof.
    split; cbn [closures_sim NE Sem SemX bindv bindl Inv Ext Cov fst snd].
    - split; reflexivity.
    - exact extends_refl.
    - exact extends_trans.
    - exact covers_left.
    - exact covers_right.
    - intros defs fuel e c E [Hag Hfr]. split; [apply (agrees_fuel defs (S fuel)); [lia|exact Hag]|apply (funs_ok_fuel defs (S fuel)); [lia|exact Hfr]].
    - intros defs fuel e c E x y [Hag Hfr]. split; [eapply (agrees_push_gen defs fuel e c); [reflexivity|exact I|reflexivity|exact Hag]|apply funs_push; [discriminate|exact Hfr]].
    - intros defs fuel e c E x [Hag Hfr]. split; [eapply (agrees_push_gen defs fuel e c); [reflexivity|exact I|reflexivity|exact Hag]|apply funs_push; [discriminate|exact Hfr]].
    - intros defs fuel e c E x i v [Hag _] Ei. destruct fuel as [|fuel]; [reflexivity|]. cbn [Run.run sem strip push_defs fold_left].
      destruct (agrees_lookup _ _ e c _ (CVar x) i Hag Ei) as (a & bb & Hn & Hl & Hk & Hb). unfold nth_bind. rewrite Hn, Hl.
      destruct a; try contradiction. destruct bb; try contradiction. cbn in Hb. subst. reflexivity.
    - intros defs fuel e c E x i v [Hag _] Ei. destruct fuel as [|fuel]; [reflexivity|]. cbn [Run.run sem strip push_defs fold_left].
      destruct (agrees_lookup _ _ e c _ (CLabel x) i Hag Ei) as (a & bb & Hn & Hl & Hk & Hb). unfold nth_bind. rewrite Hn, Hl.
      destruct a; try contradiction. destruct bb; try contradiction. cbn in Hb. subst. reflexivity.
  Qed.

  Notation runs_as := (runs_as d nr closures_sim).
  Notation compiles := (compiles g d nr closures_sim).
  Notation compiles_parts := (compiles_parts g d nr closures_sim).

  Notation inv := (Inv closures_sim).

  (** the first part serves the arguments that become closures *)
  Definition binds_as (e : env) (args : list pterm) (cargs : list term) (defs : list term) : Prop :=
    Forall2 (fun a k => runs_as e k a defs) args cargs
    /\ forall ps fuel c E v acc, length ps = length args -> inv defs fuel e c E ->
         bind_vars defs fuel (combine (map is_var_name ps) cargs) acc c v
         = smap (fun ys => mkctx (map is_var_name ps) cargs ys c acc) (svals fuel args ps (fst E) (snd E) (labels c) v).
  Notation compiles_args := (compiles_args g closures_sim binds_as).

  Fixpoint arr_its (i : Z) (xs : list bytes) : list (pkey * bytes) :=
    match xs with [] => [] | x :: r => (KI i, x) :: arr_its (i + 1)%Z r end.
  Fixpoint arr_cpats (i : Z) (xs : list bytes) : list (term * pattern) :=
    match xs with [] => [] | x :: r => (KInt i, PatVar) :: arr_cpats (i + 1)%Z r end.

  Lemma arr_items_vars xs : forall i, arr_items i (map PPVar xs) = Some (arr_its i xs).
  Proof. induction xs as [|x r IH]; intros i; [reflexivity|]. cbn [map arr_items arr_its]. rewrite IH. reflexivity. Qed.
  Lemma arr_its_snd xs : forall i, map snd (arr_its i xs) = xs.
  Proof. induction xs as [|x r IH]; intros i; [reflexivity|]. cbn [arr_its map snd]. rewrite IH. reflexivity. Qed.
  Lemma obj_items_vars kxs : obj_items (map (fun kx : pterm * bytes => (fst kx, PPVar (snd kx))) kxs) = Some (map (fun kx => (KT (fst kx), snd kx)) kxs).
  Proof. induction kxs as [|[k x] r IH]; [reflexivity|]. cbn [map obj_items fst snd]. rewrite IH. reflexivity. Qed.

  Lemma pat_vars_arr n xs : pat_vars_f (S (S n)) (PPArr (map PPVar xs)) = xs.
  Proof. cbn [pat_vars_f]. induction xs as [|x r IH]; [reflexivity|]. cbn [map flat_map pat_vars_f app]. rewrite IH. reflexivity. Qed.
  Lemma pat_vars_obj n (kxs : list (pterm * bytes)) :
    pat_vars_f (S (S n)) (PPObj (map (fun kx => (fst kx, PPVar (snd kx))) kxs)) = map snd kxs.
  Proof. cbn [pat_vars_f]. induction kxs as [|[k x] r IH]; [reflexivity|]. cbn [map flat_map pat_vars_f app fst snd]. rewrite IH. reflexivity. Qed.

  (* stated at [S m], so that unfolding [c_pattern] once leaves the calls of [c_term] and [c_pattern] at [m] folded
     (at [S (S n)] the whole body of [c_term] would be laid open) *)
  Lemma c_pat_arr m e s xs : c_pattern g (S m) e s (PPArr (map PPVar xs)) = (PatIdx (arr_cpats 0 xs), s).
  Proof.
    cbn [c_pattern].
    match goal with |- (let '(ps0, s0) := ?F s 0%Z (map PPVar xs) in _) = _ =>
      assert (E : forall l i s', F s' i (map PPVar l) = (arr_cpats i l, s')) end.
    { induction l as [|x r IH]; intros i s'; [reflexivity|]. cbn [map arr_cpats]. rewrite c_pat_var, IH. reflexivity. }
    rewrite E. reflexivity.
  Qed.

  Lemma c_pat_obj m e s (kxs : list (pterm * bytes)) :
    c_pattern g (S m) e s (PPObj (map (fun kx => (fst kx, PPVar (snd kx))) kxs))
    = let '(ks, s') := c_args g m e s (map fst kxs) in (PatIdx (map (fun k => (k, PatVar)) ks), s').
  Proof.
    cbn [c_pattern]. fold (c_term g).
    match goal with |- (let '(kps0, s0) := ?F s (map _ kxs) in _) = _ =>
      assert (E : forall l s', F s' (map (fun kx : pterm * bytes => (fst kx, PPVar (snd kx))) l)
                               = let '(ks, s'') := c_args g m e s' (map fst l) in (map (fun k => (k, PatVar)) ks, s'')) end.
    { induction l as [|[k x] r IH]; intros s'; [reflexivity|]. cbn [map fst snd c_args].
      unfold iterm. destruct (c_term g m e s' k []) as [[k' tk] sk]. rewrite c_pat_var, IH.
      destruct (c_args g m e sk (map fst r)) as [ks s'']. reflexivity. }
    rewrite E. destruct (c_args g m e s (map fst kxs)) as [ks s']. reflexivity.
  Qed.

  Definition c_ent (m : nat) (e : env) (s : cst) (k : pterm) (v : option pterm) : term * cst :=
    match k, v with
    | PVar x, None => let '(v, s) := iterm g m e s (PVar x) in (KObjSingle (KStr (tl x)) v, s)
    | k, None => let '(k, s) := iterm g m e s k in (KObjSingle k (KPath KId [(Index k, false)]), s)
    | k, Some v => let '(k, s) := iterm g m e s k in let '(v, s) := iterm g m e s v in (KObjSingle k v, s)
    end.
  (* written as the loop stands in [c_term], so that the two are convertible *)
  Definition c_kvs (m : nat) (e : env) : cst -> list (pterm * option pterm) -> list term * cst :=
    fix go s kvs :=
      match kvs with
      | [] => ([], s)
      | (k, v) :: r => let '(t, s) := c_ent m e s k v in let '(r', s) := go s r in (t :: r', s)
      end.
  Lemma c_obj m e s kvs tr :
    c_term g (S m) e s (PObj kvs) tr = let '(ts, s') := c_kvs m e s kvs in ((sum_or KObjEmpty ts, []), s').
  Proof. reflexivity. Qed.

  Definition c_strs (m : nat) (e : env) : cst -> list strpart -> list term * cst :=
    fix go s ps :=
      match ps with
      | [] => ([], s)
      | SPStr x :: r => let '(r', s) := go s r in (KStr x :: r', s)
      | SPTerm f :: r => let '(f', s) := iterm g m e s f in let '(r', s) := go s r in (KPipe f' None KToString :: r', s)
      end.
  Lemma c_str m e s parts tr :
    c_term g (S m) e s (PStr None parts) tr = let '(ts, s') := c_strs m e s parts in ((sum_or (KStr []) ts, []), s').
  Proof. reflexivity. Qed.

  (** up to fuel [F] the term [t] computes [one] of the piece [x], at one unit of fuel less *)
  Definition piece_runs {X} (defs : list term) (c : ctx) (v : val) (F : nat) (one : nat -> X -> str val) (x : X) (t : term) : Prop :=
    forall fuel, (fuel <= F)%nat -> run defs fuel t c v = match fuel with O => SBot | S m => one m x end.

  Lemma sum_correct {X} (one : nat -> X -> str val) (sumf : nat -> list X -> str val) dflt kd defs c v F :
    (forall m xs, sumf (S m) xs = sum_body (one m) (sumf m) dflt xs) -> (forall xs, sumf 0%nat xs = SBot) ->
    (forall fuel, run defs fuel kd c v = match fuel with O => SBot | S _ => sone dflt end) ->
    forall xs ts, Forall2 (piece_runs defs c v F one) xs ts ->
    forall fuel, (fuel <= F)%nat -> run defs fuel (sum_or kd ts) c v = sumf fuel xs.
  Proof.
    intros HS H0 Hd xs ts HF. induction HF as [|x t xs ts Hxt HF IH]; intros fuel Hle.
    - cbn [sum_or]. rewrite Hd. destruct fuel; [rewrite H0; reflexivity|rewrite HS; reflexivity].
    - assert (ONE : forall fuel, (fuel <= F)%nat -> run defs fuel t c v = sumf fuel [x]).
      { intros f Hf. rewrite (Hxt f Hf). destruct f; [rewrite H0; reflexivity|rewrite HS; reflexivity]. }
      destruct HF as [|x2 t2 xs ts Hx2 HF].
      + cbn [sum_or]. apply ONE. exact Hle.
      + change (sum_or kd (t :: t2 :: ts)) with (KMath t Add (sum_or kd (t2 :: ts))).
        destruct fuel as [|m]; [rewrite H0; reflexivity|]. rewrite run_math, HS. cbn [sum_body].
        rewrite (ONE m ltac:(lia)). rewrite (IH m ltac:(lia)). reflexivity.
  Qed.

  Definition ent_one (rho : nenv) (phi : list fent) (lab : nat) (v : val) (m : nat) (kv : pterm * option pterm) : str val :=
    ent_sem (fun t => sem m t rho phi lab v) m kv.
  Definition part_one (rho : nenv) (phi : list fent) (lab : nat) (v : val) (m : nat) (p : strpart) : str val :=
    part_sem (fun t => sem m t rho phi lab v) m p.

  Definition compiles_kvs (b : list cbind) (fs : list (bytes * nat)) (n : nat) (kvs : list (pterm * option pterm)) : Prop :=
    forall m e s, (n <= m)%nat -> in_scope b e -> defined fs (e_funs e) ->
    exists ts s', c_kvs m e s kvs = (ts, s')
      /\ holds closures_sim s s' (fun defs => forall F c E v, inv defs F e c E ->
            Forall2 (piece_runs defs c v F (ent_one (fst E) (snd E) (labels c) v)) kvs ts).
  Definition compiles_strs (b : list cbind) (fs : list (bytes * nat)) (n : nat) (ps : list strpart) : Prop :=
    forall m e s, (n <= m)%nat -> in_scope b e -> defined fs (e_funs e) ->
    exists ts s', c_strs m e s ps = (ts, s')
      /\ holds closures_sim s s' (fun defs => forall F c E v, inv defs F e c E ->
            Forall2 (piece_runs defs c v F (part_one (fst E) (snd E) (labels c) v)) ps ts).

  Definition params_env (ps : list bytes) (e : env) : env :=
    fold_left (fun e a => if is_var_name a then push_var (CVar a) e else push_arg a e) ps e.

  Lemma push_parent_eq f ps id e :
    push_parent f ps id e
    = push_fun {| f_name := f; f_arity := length ps; f_kind := FParent (map is_var_name ps) id; f_vars := total e |} (params_env ps e).
  Proof. reflexivity. Qed.

  Lemma params_env_snoc ps p e :
    params_env (ps ++ [p]) e = (if is_var_name p then push_var (CVar p) (params_env ps e) else push_arg p (params_env ps e)).
  Proof. unfold params_env. rewrite fold_left_app. reflexivity. Qed.

  Lemma params_env_vars ps : forall e, e_vars (params_env ps e) = map pname (rev ps) ++ e_vars e.
  Proof.
    induction ps as [|x ps IH] using rev_ind; intros e; [reflexivity|]. rewrite params_env_snoc, rev_app_distr. cbn [rev app map].
    unfold pname at 1. destruct (is_var_name x); cbn [push_var push_arg push_fun e_vars]; rewrite IH; reflexivity.
  Qed.

  Lemma fparams_snoc ps p : fparams (ps ++ [p]) = fparams ps ++ (if is_var_name p then [] else [p]).
  Proof. unfold fparams. rewrite filter_app. cbn [filter]. destruct (is_var_name p); reflexivity. Qed.

  Lemma params_env_find ps : forall e f ar fe, find_fun f ar (e_funs (params_env ps e)) = Some fe ->
    (find_fun f ar (e_funs e) = Some fe /\ ~ (ar = 0%nat /\ In f (fparams ps)))
    \/ (ar = 0%nat /\ In f (fparams ps) /\ f_kind fe = FArg /\ (f_vars fe <= total (params_env ps e))%nat
        /\ index_of (CFun f) (e_vars (params_env ps e)) 0 = Some (total (params_env ps e) - f_vars fe)%nat).
  Proof.
    induction ps as [|p ps IH] using rev_ind; intros e f ar fe H.
    - left. split; [exact H|]. intros [_ []].
    - rewrite params_env_snoc in *. rewrite fparams_snoc. destruct (is_var_name p) eqn:Ev.
      + cbn [push_var e_funs] in H. destruct (IH e f ar fe H) as [[H1 H2]|(A & I & K & V & X)].
        * left. split; [exact H1|]. rewrite app_nil_r. exact H2.
        * right. rewrite app_nil_r. repeat split; auto.
          -- unfold total in *. cbn [push_var e_vars length]. lia.
          -- unfold total in *. cbn [push_var e_vars length]. rewrite index_of_cons, X. cbn [cbind_eqb option_map]. f_equal. lia.
      + unfold push_arg in H. cbn [push_fun e_funs find_fun f_name f_arity] in H.
        destruct (bytes_eqb f p && Nat.eqb ar 0) eqn:T.
        * injection H as <-. apply andb_prop in T as [T1 T2]. apply Nat.eqb_eq in T2. destruct (bytes_eqb_spec f p) as [->|]; [|discriminate].
          right. split; [exact T2|]. split; [apply in_or_app; right; left; reflexivity|]. split; [reflexivity|].
          unfold push_arg, total. cbn [push_fun push_var e_vars f_vars length index_of]. rewrite cbind_eqb_refl. split; [lia|]. f_equal. lia.
        * cbn [push_var e_funs] in H. destruct (IH e f ar fe H) as [[H1 H2]|(A & I & K & V & X)].
          -- left. split; [exact H1|]. intros [A I]. apply in_app_or in I as [I|[<-|[]]]; [apply H2; auto|].
             rewrite A in T. cbn in T. rewrite andb_true_r in T. destruct (bytes_eqb_spec p p); congruence.
          -- right. split; [exact A|]. split; [apply in_or_app; left; exact I|]. split; [exact K|].
             unfold push_arg, total in *. cbn [push_fun push_var e_vars length]. split; [lia|]. rewrite index_of_cons, X. cbn [cbind_eqb].
             assert (bytes_eqb f p = false) as -> by (rewrite A in T; cbn in T; rewrite andb_true_r in T; exact T).
             cbn [option_map]. f_equal. lia.
  Qed.

  Lemma params_env_has ps : forall e f, In f (fparams ps) -> exists fe, find_fun f 0 (e_funs (params_env ps e)) = Some fe.
  Proof.
    induction ps as [|p ps IH] using rev_ind; intros e f H; [destruct H|]. rewrite params_env_snoc. rewrite fparams_snoc in H.
    destruct (is_var_name p) eqn:Ev.
    - rewrite app_nil_r in H. cbn [push_var e_funs]. apply IH. exact H.
    - unfold push_arg. cbn [push_fun e_funs find_fun f_name f_arity]. destruct (bytes_eqb f p && Nat.eqb 0 0) eqn:T; [eauto|].
      cbn [push_var e_funs]. apply in_app_or in H as [H|[<-|[]]]; [apply IH; exact H|].
      cbn in T. rewrite andb_true_r in T. destruct (bytes_eqb_spec p p); congruence.
  Qed.
  Lemma params_env_keeps ps : forall e f ar fe, find_fun f ar (e_funs e) = Some fe -> exists fe', find_fun f ar (e_funs (params_env ps e)) = Some fe'.
  Proof.
    induction ps as [|p ps IH] using rev_ind; intros e f ar fe H; [eauto|]. rewrite params_env_snoc. destruct (is_var_name p).
    - cbn [push_var e_funs]. eapply IH. exact H.
    - unfold push_arg. cbn [push_fun e_funs find_fun]. destruct (_ && _); [eauto|]. cbn [push_var e_funs]. eapply IH. exact H.
  Qed.

  Lemma find_ent_pars qs : forall f ar phio,
    find_ent f ar (map FPar qs ++ phio) = if Nat.eqb ar 0 && existsb (bytes_eqb f) qs then Some (EPar f) else find_ent f ar phio.
  Proof.
    induction qs as [|q qs IH]; intros f ar phio; [rewrite andb_false_r; reflexivity|]. cbn [map app find_ent existsb].
    destruct (bytes_eqb_spec f q) as [->|N].
    - destruct (Nat.eqb ar 0) eqn:E; cbn [andb orb]; [reflexivity|]. rewrite IH, E. reflexivity.
    - cbn [andb orb]. rewrite IH. reflexivity.
  Qed.

  Lemma existsb_in f qs : existsb (bytes_eqb f) qs = true <-> In f qs.
  Proof.
    rewrite existsb_exists. split.
    - intros (x & Hx & E). destruct (bytes_eqb_spec f x); [subst; exact Hx|discriminate].
    - intros H. exists f. split; [exact H|]. destruct (bytes_eqb_spec f f); congruence.
  Qed.

  Lemma mk_rel defs fuel c rho phi : forall ps args cargs ys accn accc,
    length args = length ps -> length cargs = length ps -> length ys = length (filter is_var_name ps) ->
    Forall2 (fun a k => brel defs fuel (NF a rho phi) (BFun k (vars c))) args cargs ->
    exists bs cb, mkenv ps args ys rho phi accn = bs ++ accn
      /\ vars (mkctx (map is_var_name ps) cargs ys c accc) = cb ++ vars accc
      /\ labels (mkctx (map is_var_name ps) cargs ys c accc) = labels accc
      /\ Forall2 (brel defs fuel) (map snd bs) cb
      /\ map fst bs = map pname (rev ps)
      /\ Forall (fun p => kind_ok (fst p) (snd p)) bs.
  Proof.
    induction ps as [|p ps IH]; intros args cargs ys accn accc La Lc Ly HF.
    - destruct args, cargs; try discriminate. exists [], []. cbn. repeat split; constructor.
    - destruct args as [|a args], cargs as [|k cargs]; try discriminate. inversion HF as [|? ? ? ? Hak HF']; subst.
      cbn [mkenv map mkctx filter] in *. destruct (is_var_name p) eqn:Ev.
      + destruct ys as [|y ys]; [discriminate|]. cbn [length] in Ly.
        destruct (IH args cargs ys ((CVar p, NV y) :: accn) (cons_var y accc) ltac:(cbn in La; lia) ltac:(cbn in Lc; lia) ltac:(lia) HF')
          as (bs & cb & E1 & E2 & E3 & F & M & K).
        exists (bs ++ [(CVar p, NV y)]), (cb ++ [BVar y]). rewrite E1, E2, E3. rewrite <- !app_assoc. repeat split.
        * rewrite map_app. apply Forall2_app; [exact F|]. constructor; [reflexivity|constructor].
        * rewrite map_app, M. cbn [rev]. rewrite map_app. cbn [map]. replace (pname p) with (CVar p) by (unfold pname; rewrite Ev; reflexivity). reflexivity.
        * apply Forall_app. split; [exact K|]. constructor; [exact I|constructor].
      + destruct (IH args cargs ys ((CFun p, NF a rho phi) :: accn) (cons_fun k c accc) ltac:(cbn in La; lia) ltac:(cbn in Lc; lia) Ly HF')
          as (bs & cb & E1 & E2 & E3 & F & M & K).
        exists (bs ++ [(CFun p, NF a rho phi)]), (cb ++ [BFun k (vars c)]). rewrite E1, E2, E3. rewrite <- !app_assoc. repeat split.
        * rewrite map_app. apply Forall2_app; [exact F|]. constructor; [exact Hak|constructor].
        * rewrite map_app, M. cbn [rev]. rewrite map_app. cbn [map]. replace (pname p) with (CFun p) by (unfold pname; rewrite Ev; reflexivity). reflexivity.
        * apply Forall_app. split; [exact K|]. constructor; [exact I|constructor].
  Qed.

  Lemma svals_length fuel : forall args ps rho phi lab v, length args = length ps ->
    sforall (fun ys => length ys = length (filter is_var_name ps)) (svals fuel args ps rho phi lab v).
  Proof.
    induction fuel as [|fuel IH]; intros args ps rho phi lab v L; [exact I|]. destruct args as [|a r], ps as [|p ps]; try discriminate; cbn [svals filter].
    - cbn. auto.
    - destruct (is_var_name p).
      + apply GetpathLaws.sforall_sbind_all.
        intros y. apply GetpathLaws.sforall_smap. eapply GetpathLaws.sforall_impl; [|apply IH; cbn in L; lia]. cbn. intros ys ->. reflexivity.
      + apply IH. cbn in L. lia.
  Qed.

  Lemma find_ent_spec phi : forall f ar en, find_ent f ar phi = Some en ->
    match en with EDef f' ps _ _ _ => f' = f /\ ar = length ps | EPar p => p = f /\ ar = 0%nat end.
  Proof.
    induction phi as [|[f' ps body rd phio|p] phi IH]; intros f ar en H; [discriminate| |]; cbn [find_ent] in H.
    - destruct (bytes_eqb f f' && Nat.eqb ar (length ps)) eqn:T; [|apply IH; exact H]. injection H as <-.
      apply andb_prop in T as [T1 T2]. apply Nat.eqb_eq in T2. destruct (bytes_eqb_spec f f'); [auto|discriminate].
    - destruct (bytes_eqb f p && Nat.eqb ar 0) eqn:T; [|apply IH; exact H]. injection H as <-.
      apply andb_prop in T as [T1 T2]. apply Nat.eqb_eq in T2. destruct (bytes_eqb_spec f p); [auto|discriminate].
  Qed.

  Lemma in_pname_fparams q ps : In (CFun q) (map pname ps) -> In q (fparams ps).
  Proof.
    intros H. apply in_map_iff in H as (x & E & Hx). unfold pname in E. destruct (is_var_name x) eqn:V; [discriminate|]. injection E as ->.
    unfold fparams. apply filter_In. split; [exact Hx|]. rewrite V. reflexivity.
  Qed.

  Lemma agrees_push_vals defs fuel e c rho xs ys : length ys = length xs -> agrees defs fuel e c rho ->
    agrees defs fuel (Compile.with_vars xs e) (push_vals ys c) (pbindv xs ys ++ rho).
  Proof.
    intros L (Hm & (bs & rest & Hv & HF) & Hk). destruct (with_vars_env xs e) as [EV _].
    split; [rewrite map_app, Hm, EV; f_equal; apply bind_params_fst; exact L|]. split.
    - exists (map BVar (rev ys) ++ bs), rest. rewrite push_vals_vars, Hv, <- app_assoc. split; [reflexivity|].
      rewrite map_app, (bind_params_snd NV) by exact L. apply Forall2_app; [|exact HF]. clear. induction (rev ys) as [|y l IH]; constructor; [reflexivity|exact IH].
    - apply Forall_app. split; [|exact Hk]. apply (bind_params_all NV). intros x y. exact I.
  Qed.

  Lemma inv_push_vals defs fuel e c E xs ys : length ys = length xs -> inv defs fuel e c E ->
    inv defs fuel (Compile.with_vars xs e) (push_vals ys c) (pbindv xs ys ++ fst E, snd E).
  Proof.
    intros L [Hag Hfr]. split; [apply agrees_push_vals; assumption|]. rewrite (proj2 (with_vars_env xs e)).
    apply funs_push_vars; [|exact Hfr]. apply (bind_params_all NV). discriminate.
  Qed.

  Definition keysem (rho : nenv) (phi : list fent) (lab : nat) (y : val) (m : nat) (key : pkey) : str val :=
    match key with KI i => match m with O => SBot | S _ => sone (vint i) end | KT k => sem m k rho phi lab y end.

  Lemma sflat_cons m key x rest rho phi lab y :
    sflat (S m) ((key, x) :: rest) rho phi lab y
    = sbind (keysem rho phi lab y m key) (fun i => sbind (of_res (vindex y i)) (fun xv =>
        match rest with [] => sone [xv] | _ => smap (cons xv) (sflat m rest rho phi lab y) end)).
  Proof. destruct key; reflexivity. Qed.

  Lemma bind_flat defs c0 rho phi lab y F : forall its cps,
    Forall2 (fun it cp => snd cp = PatVar /\ forall m, (m <= F)%nat -> run defs m (fst cp) c0 y = keysem rho phi lab y m (fst it)) its cps ->
    forall fuel acc, (fuel <= S F)%nat ->
      bind_pats defs fuel cps acc c0 y = smap (fun ys => push_vals ys acc) (sflat fuel its rho phi lab y).
  Proof.
    induction 1 as [|[key x] [idx pat] its cps [Hp Hk] HF IH]; intros fuel acc Hle; (destruct fuel as [|m]; [reflexivity|]).
    - reflexivity.
    - cbn [fst snd] in Hp, Hk. subst pat. rewrite bind_pats_cons, sflat_cons. cbv zeta. rewrite (Hk m ltac:(lia)).
      destruct HF as [|it2 cp2 its cps H2 HF].
      + rewrite smap_over_sbind. apply sbind_ext. intros i. rewrite smap_over_sbind. apply sbind_ext. intros xv. reflexivity.
      + rewrite sbind_assoc, smap_over_sbind. apply sbind_ext. intros i. rewrite sbind_assoc, smap_over_sbind. apply sbind_ext. intros xv.
        rewrite sbind_sone_l, (IH m (cons_var xv acc) ltac:(lia)), smap_smap. reflexivity.
  Qed.

  Lemma sflat_length fuel : forall its rho phi lab y, sforall (fun ys => length ys = length its) (sflat fuel its rho phi lab y).
  Proof.
    induction fuel as [|m IH]; intros its rho phi lab y; [exact I|]. destruct its as [|[key x] rest]; [cbn; auto|]. rewrite sflat_cons.
    apply GetpathLaws.sforall_sbind_all. intros i. apply GetpathLaws.sforall_sbind_all.
    intros xv. destruct rest as [|it2 rest]; [cbn; auto|]. apply GetpathLaws.sforall_smap. eapply GetpathLaws.sforall_impl; [|apply IH]. cbn. intros ys ->. reflexivity.
  Qed.

  Lemma c_ent_key m e s k : (forall x, k <> PVar x) ->
    c_ent m e s k None = let '(k', s') := iterm g m e s k in (KObjSingle k' (KPath KId [(Index k', false)]), s').
  Proof. intros H. destruct k; try reflexivity. exfalso. eapply H. reflexivity. Qed.
  Lemma c_ent_kv m e s k v :
    c_ent m e s k (Some v) = let '(k', s1) := iterm g m e s k in let '(v', s2) := iterm g m e s1 v in (KObjSingle k' v', s2).
  Proof. destruct k; reflexivity. Qed.
  Lemma ent_sem_key (S : pterm -> str val) m k : (forall x, k <> PVar x) ->
    ent_sem S m (k, None) = smap (fun kv => from_map [kv]) (sbind (S k) (fun a => smap (fun y => (a, y)) (S (PPath PId [(PIndex k, false)])))).
  Proof. intros H. destruct k; try reflexivity. exfalso. eapply H. reflexivity. Qed.

  Lemma arr_keys defs c rho phi lab y F xs : forall i,
    Forall2 (fun it cp => snd cp = PatVar /\ forall m, (m <= F)%nat -> run defs m (fst cp) c y = keysem rho phi lab y m (fst it)) (arr_its i xs) (arr_cpats i xs).
  Proof.
    induction xs as [|x xs IH]; intros i; cbn [arr_its arr_cpats]; constructor; [|apply IH].
    cbn [fst snd]. split; [reflexivity|]. intros m0 _. destruct m0; reflexivity.
  Qed.

  Lemma bind_items_runs e xs its cps k1 k2 l r defs :
    map snd its = xs -> runs_as e k1 l defs -> runs_as (Compile.with_vars xs e) k2 r defs ->
    (forall F c E y, inv defs F e c E ->
       Forall2 (fun it cp => snd cp = PatVar /\ forall m, (m <= F)%nat -> run defs m (fst cp) c y = keysem (fst E) (snd E) (labels c) y m (fst it)) its cps) ->
    forall fuel c E v, inv defs fuel e c E ->
      run defs (S fuel) (KPipe k1 (Some (PatIdx cps)) k2) c v
      = sbind (sem fuel l (fst E) (snd E) (labels c) v) (fun y =>
          sbind (sflat fuel its (fst E) (snd E) (labels c) y) (fun ys => sem fuel r (pbindv xs ys ++ fst E) (snd E) (labels c) v)).
  Proof.
    intros SN R1 R2 HK fuel c E v HI. rewrite run_bindp, (R1 fuel c E v HI). apply sbind_ext. intros y.
    rewrite (bind_flat defs c (fst E) (snd E) (labels c) y fuel its cps (HK fuel c E y HI) fuel c ltac:(lia)).
    rewrite sbind_smap. apply (sbind_ext_on (fun ys => length ys = length its)); [apply sflat_length|].
    intros ys Hys. rewrite <- (push_vals_labels ys c). apply (R2 fuel (push_vals ys c) (pbindv xs ys ++ fst E, snd E) v).
    apply inv_push_vals; [|exact HI]. rewrite Hys, <- SN, map_length. reflexivity.
  Qed.

  Lemma call_def_runs defs fuel e c rho phi v f args cargs fe k ps body rd phio :
    length cargs = length args -> length args = length ps -> binds_as e args cargs defs -> inv defs (S fuel) e c (rho, phi) ->
    ent_rel defs (S fuel) rho fe (EDef f ps body rd phio) ->
    call_of e fe cargs k ->
    run defs (S fuel) k c v
    = sbind (svals fuel args ps rho phi (labels c) v)
        (fun ys => sem fuel body (mkenv ps args ys rho phi [] ++ rd) (phi_body f ps body rd phio) (labels c) v).
  Proof.
    intros LA Lps [RB RV] HI (Ar & id & kb & I & V & (pushed & P) & T & C) LK. pose proof HI as [Hag Hfr]. cbn [fst snd] in Hag, Hfr.
    destruct (call_of_def _ _ _ _ _ _ I LK) as (typ & ->). unfold binds. rewrite run_calldef, T.
    rewrite (RV ps fuel c (rho, phi) v (skip_vars (total e - f_vars fe) c) (eq_sym Lps) (inv_pred closures_sim_ok _ _ _ _ _ HI)). cbn [fst snd].
    rewrite sbind_smap. apply (sbind_ext_on (fun ys => length ys = length (filter is_var_name ps))); [apply svals_length; exact Lps|].
    intros ys Hys.
    assert (HF : Forall2 (fun a k => brel defs fuel (NF a rho phi) (BFun k (vars c))) args cargs).
    { eapply Forall2_imp; [|exact RB]. intros a k Hak. cbn [brel]. intros fuel' Hf' lab v0.
      apply (Hak fuel' {| vars := vars c; labels := lab |} (rho, phi) v0). split.
      - apply (agrees_vars defs fuel' e c); [reflexivity|]. apply (agrees_fuel defs (S fuel)); [lia|exact Hag].
      - apply (funs_ok_fuel defs (S fuel)); [lia|exact Hfr]. }
    destruct (mk_rel defs fuel c rho phi ps args cargs ys [] (skip_vars (total e - f_vars fe) c) Lps ltac:(congruence) Hys HF)
      as (bs & cb & E1 & E2 & E3 & F2 & M & K).
    rewrite app_nil_r in E1. rewrite E1.
    change (labels c) with (labels (skip_vars (total e - f_vars fe) c)). rewrite <- E3.
    apply (C fuel ltac:(lia)); [exact M|exact K|].
    destruct Hag as (Hmm & (bs0 & rest0 & Hv & HF0) & _).
    rewrite P, map_app in HF0. apply Forall2_app_inv_l in HF0 as (bp & brd & Fp & Frd & ->).
    exists (cb ++ brd), rest0. split.
    - apply Forall2_length in Fp. rewrite map_length in Fp.
      rewrite E2, V, (skip_pushed e c pushed rd bp (brd ++ rest0)); [apply app_assoc|congruence|congruence|rewrite Hv, <- app_assoc; reflexivity].
    - rewrite map_app. apply Forall2_app; [exact F2|]. eapply Forall2_imp; [|exact Frd]. intros x y. apply brel_fuel. lia.
  Qed.

  Lemma call_par_runs defs fuel e c rho v p cargs fe k : agrees defs (S fuel) e c rho -> ent_rel defs (S fuel) rho fe (EPar p) ->
    call_of e fe cargs k ->
    run defs (S fuel) k c v = match lookup rho (CFun p) with Some (NF t rho' phi') => sem fuel t rho' phi' (labels c) v | _ => SUnk end.
  Proof.
    intros Hag (K & V & X) LK. rewrite (call_of_arg _ _ _ _ K LK).
    pose proof Hag as (Hmm & _ & _). rewrite Hmm in X.
    assert (TL : total e = length rho) by (unfold total; rewrite <- Hmm, map_length; reflexivity). rewrite <- TL in X.
    destruct (agrees_lookup defs (S fuel) e c rho (CFun p) _ Hag X) as (a & bb & Hn & Hl & Hk & Hb).
    cbn [Run.run]. unfold nth_bind. rewrite Hn, Hl. destruct a; try contradiction. destruct bb; try contradiction.
    cbn [brel] in Hb. apply (Hb fuel ltac:(lia) (labels c) v).
  Qed.

  Lemma call_runs e f args cargs fe k defs : find_fun f (length args) (e_funs e) = Some fe -> length cargs = length args ->
    call_of e fe cargs k -> binds_as e args cargs defs -> runs_as e k (PCall f args) defs.
  Proof.
    intros Hfe LA LK RA [|fuel] c [rho phi] v HI; [reflexivity|]. pose proof HI as [Hag Hfr]. cbn [fst snd] in Hag, Hfr.
    destruct (Hfr f (length args) fe Hfe) as (en & FE & ER). pose proof (find_ent_spec _ _ _ _ FE) as SP.
    cbn [closures_sim Sem fst snd sem strip push_defs fold_left]. rewrite FE. destruct en as [f' ps body rd phio|p].
    - destruct SP as [-> Lps]. exact (call_def_runs defs fuel e c rho phi v f args cargs fe k ps body rd phio LA Lps RA HI ER LK).
    - destruct SP as [-> Lar]. exact (call_par_runs defs fuel e c rho v f cargs fe k Hag ER LK).
  Qed.

  (** the clause for definitions of [ent_rel], at one fuel *)
  Definition body_runs (defs : list term) (kb : term) (f : bytes) (ps : list bytes) (body : pterm) (rd : nenv) (phio : list fent) (fuel : nat) : Prop :=
    forall c v bs, map fst bs = map pname (rev ps) -> Forall (fun p => kind_ok (fst p) (snd p)) bs ->
      (exists cb rest, vars c = cb ++ rest /\ Forall2 (brel defs fuel) (map snd (bs ++ rd)) cb) ->
      run defs fuel kb c v = sem fuel body (bs ++ rd) (phi_body f ps body rd phio) (labels c) v.

  Lemma defined_params_env ps fs e :
    defined fs (e_funs e) -> defined (map (fun p => (p, 0%nat)) (rev (fparams ps)) ++ fs) (e_funs (params_env ps e)).
  Proof.
    intros H f ar Hin. apply in_app_or in Hin as [Hin|Hin].
    - apply in_map_iff in Hin as (q & Q & Hq). injection Q as <- <-. apply params_env_has. apply in_rev. exact Hq.
    - destruct (H f ar Hin) as (fe0 & H0). eapply params_env_keeps. exact H0.
  Qed.

  Lemma funs_ok_body defs fuel e f ps body id kb rho phi (bs : nenv) :
    map fst rho = e_vars e -> map fst bs = map pname (rev ps) -> nth_error defs id = Some kb ->
    (forall fuel', (fuel' < fuel)%nat -> body_runs defs kb f ps body rho phi fuel') ->
    funs_ok defs fuel (e_funs e) rho phi ->
    funs_ok defs fuel (e_funs (push_parent f ps id e)) (bs ++ rho) (phi_body f ps body rho phi).
  Proof.
    intros Hmm Mb Hdid IHf Hfr f' ar' fe' Hf'. rewrite push_parent_eq in Hf'. cbn [push_fun e_funs find_fun f_name f_arity] in Hf'.
    unfold phi_body. cbn [find_ent]. destruct (bytes_eqb f' f && Nat.eqb ar' (length ps)) eqn:T.
    - (* the definition itself *)
      injection Hf' as <-. eexists. split; [reflexivity|]. cbn [ent_rel f_arity]. split; [reflexivity|]. exists id, kb.
      split; [reflexivity|]. split; [unfold total; rewrite <- Hmm, map_length; reflexivity|]. split; [exists bs; reflexivity|]. split; [exact Hdid|exact IHf].
    - rewrite find_ent_pars. destruct (params_env_find ps e f' ar' fe' Hf') as [[G1 G2]|(A0 & I0 & K0 & V0 & X0)].
      + (* from outside *)
        assert ((Nat.eqb ar' 0 && existsb (bytes_eqb f') (rev (fparams ps))) = false) as ->.
        { destruct (Nat.eqb_spec ar' 0) as [->|]; [|reflexivity]. cbn [andb]. destruct (existsb _ _) eqn:EX; [|reflexivity].
          exfalso. apply G2. split; [reflexivity|]. apply in_rev. apply existsb_in. exact EX. }
        destruct (Hfr f' ar' fe' G1) as (en & FE & ER). exists en. split; [exact FE|]. apply ent_rel_app; [|exact ER].
        pose proof (find_ent_spec _ _ _ _ FE) as SP. destruct en as [|p0]; [exact I|]. destruct SP as [-> ->].
        rewrite Mb. intros Hin. apply G2. split; [reflexivity|]. apply in_pname_fparams in Hin.
        unfold fparams in *. apply filter_In in Hin as [Hin1 Hin2]. apply filter_In. split; [apply in_rev; exact Hin1|exact Hin2].
      + (* a filter parameter *)
        subst ar'. cbn [Nat.eqb andb].
        assert (existsb (bytes_eqb f') (rev (fparams ps)) = true) as -> by (apply existsb_in; apply in_rev; rewrite rev_involutive; exact I0).
        eexists. split; [reflexivity|]. cbn [ent_rel]. split; [exact K0|].
        assert (TE : total (params_env ps e) = length (bs ++ rho)).
        { unfold total. rewrite params_env_vars, !app_length, !map_length. rewrite <- (map_length fst bs), Mb, map_length, rev_length.
          rewrite <- Hmm, map_length. reflexivity. }
        rewrite <- TE. split; [exact V0|]. rewrite map_app, Mb, Hmm, <- params_env_vars. exact X0.
  Qed.

  Lemma funs_ok_sibling defs fuel e f ps body id kb trb rho phi :
    map fst rho = e_vars e -> nth_error defs id = Some kb ->
    (forall fuel', (fuel' < fuel)%nat -> body_runs defs kb f ps body rho phi fuel') ->
    funs_ok defs fuel (e_funs e) rho phi ->
    funs_ok defs fuel (e_funs (push_sibling f (map is_var_name ps) id trb e)) rho (FDef f ps body rho phi :: phi).
  Proof.
    intros Hmm Hdid IHf Hfr f' ar' fe' Hf'. unfold push_sibling in Hf'. cbn [push_fun e_funs find_fun f_name f_arity] in Hf'. rewrite map_length in Hf'.
    cbn [find_ent]. destruct (bytes_eqb f' f && Nat.eqb ar' (length ps)) eqn:T; [|apply Hfr; exact Hf'].
    injection Hf' as <-. eexists. split; [reflexivity|]. cbn [ent_rel f_arity]. split; [reflexivity|]. exists id, kb.
    split; [reflexivity|]. split; [unfold total; rewrite <- Hmm, map_length; reflexivity|]. split; [exists []; reflexivity|]. split; [exact Hdid|exact IHf].
  Qed.

  (** as in CompileDefs.v *)
  Lemma def_runs f ps body t e id kb k trb defs : nth_error defs id = Some kb ->
    runs_as (push_parent f ps id e) kb body defs ->
    runs_as (push_sibling f (map is_var_name ps) id trb e) k t defs ->
    runs_as e k (PDef [PDefn f ps body] t) defs.
  Proof.
    intros Hdid R2 R4 fuel c [rho phi] v [Hag Hfr]. cbn [fst snd] in Hag, Hfr. cbn [closures_sim Sem fst snd]. rewrite sem_def.
    pose proof Hag as (Hmm & Hctx & Hk).
    assert (CL : forall fuel', (fuel' <= fuel)%nat -> body_runs defs kb f ps body rho phi fuel').
    { refine (below_ind _ fuel _). intros fuel' Hle IHf c' v' bs Mb Kb Hc'.
      apply (R2 fuel' c' (bs ++ rho, phi_body f ps body rho phi) v'). split; cbn [fst snd].
      - split; [|split; [exact Hc'|apply Forall_app; split; assumption]].
        rewrite push_parent_eq. cbn [push_fun e_vars]. rewrite params_env_vars, map_app, Mb, Hmm. reflexivity.
      - apply (funs_ok_body defs fuel' e f ps body id kb); [exact Hmm|exact Mb|exact Hdid| |apply (funs_ok_fuel defs fuel); assumption].
        intros fuel'' Hlt. exact (IHf fuel'' Hlt). }
    apply (R4 fuel c (rho, FDef f ps body rho phi :: phi) v). split; [exact Hag|]. cbn [fst snd].
    apply (funs_ok_sibling defs fuel e f ps body id kb); [exact Hmm|exact Hdid| |exact Hfr]. intros fuel' Hlt. apply CL. lia.
  Qed.

  Lemma compile_closures_mut :
    (forall b fs n t, frag b fs n t -> compiles b (defined fs) n t)
    /\ (forall b fs n args, frag_args b fs n args -> compiles_args b (defined fs) n args)
    /\ (forall b fs n ps, frag_parts b fs n ps -> compiles_parts b (defined fs) n ps)
    /\ (forall b fs n kvs, frag_kvs b fs n kvs -> compiles_kvs b fs n kvs)
    /\ (forall b fs n ps, frag_strs b fs n ps -> compiles_strs b fs n ps).
  Proof.
    apply frag_mutind; intros.
    - apply (compiles_id closures_sim_ok).
    - apply (compiles_num closures_sim_ok).
    - apply (compiles_var closures_sim_ok); assumption.
    - apply (compiles_neg closures_sim_ok); assumption.
    - apply (compiles_arr closures_sim_ok); assumption.
    - apply (compiles_try closures_sim_ok); assumption.
    - apply (compiles_ite closures_sim_ok); assumption.
    - apply (compiles_pipe closures_sim_ok); assumption.
    - apply (compiles_bind closures_sim_ok); assumption.
    - apply (compiles_comma closures_sim_ok); assumption.
    - apply (compiles_alt closures_sim_ok); assumption.
    - apply (compiles_binop closures_sim_ok); [exact I|assumption..].
    - apply (compiles_binop closures_sim_ok); [exact I|assumption..].
    - apply (compiles_binop closures_sim_ok); [exact I|assumption..].
    - apply (compiles_binop closures_sim_ok); [exact I|assumption..].
    - apply (compiles_path closures_sim_ok); assumption.
    - apply (compiles_reduce closures_sim_ok); assumption.
    - apply (compiles_foreach closures_sim_ok); assumption.
    - apply (compiles_foreach3 closures_sim_ok); assumption.
    - apply (compiles_label closures_sim_ok); assumption.
    - apply (compiles_break closures_sim_ok); assumption.
    - (* call *) apply compiles_call with (binds_as := binds_as); [intros e Hfs; exact (Hfs f _ H)|assumption|].
      intros e cargs fe k defs. apply call_runs.
    - (* def *)
      apply compiles_def with (b1 := map pname (rev ps) ++ b) (Q1 := defined ((f, length ps) :: map (fun p => (p, 0%nat)) (rev (fparams ps)) ++ fs))
                              (Q3 := defined ((f, length ps) :: fs)); try assumption; try reflexivity.
      + intros e id Hsc Hfs. rewrite push_parent_eq. split.
        * apply (in_scope_app _ b e); [apply params_env_vars|exact Hsc].
        * apply defined_push; [reflexivity..|apply defined_params_env; exact Hfs].
      + intros e id trb Hfs. apply defined_push; [reflexivity|apply map_length|exact Hfs].
      + apply def_runs.
    - apply compiles_S. intros m e s tr Hm _ _. exists KRecurse, [], s. split; [reflexivity|]. apply (holds_ret closures_sim_ok).
      intros defs. apply (runs_as_S closures_sim_ok). intros fuel c E v _. reflexivity.
    - (* if without else *) rename H0 into IHi, H2 into IHth. apply compiles_S. intros m e s tr Hm Hsc Hfs.
      destruct (IHi m e s [] Hm Hsc Hfs) as (k1 & tr1 & s1 & E1 & O1). destruct (IHth m e s1 tr Hm Hsc Hfs) as (k2 & tr2 & s2 & E2 & O2).
      exists (KIte k1 k2 KId), (union tr2 []), s2. split; [cbn [c_term]; rewrite E1, E2; reflexivity|]. apply (holds_imp (holds_and closures_sim_ok O1 O2)).
      intros defs [R1 R2]. apply (runs_as_S closures_sim_ok). intros fuel c E v HI. cbn [Run.run]. rewrite (R1 fuel c E v HI).
      apply sbind_ext. intros y. destruct (as_bool y); [exact (R2 fuel c E v HI)|destruct fuel; reflexivity].
    - (* object *) rename H0 into IHk. apply compiles_S. intros m e s tr Hm Hsc Hfs. destruct (IHk m e s Hm Hsc Hfs) as (ts & s1 & E1 & O1).
      exists (sum_or KObjEmpty ts), [], s1. split; [rewrite c_obj, E1; reflexivity|]. apply (holds_imp O1).
      intros defs R1 fuel c E v HI. pose proof (R1 fuel c E v HI) as HF.
      rewrite (sum_correct (ent_one (fst E) (snd E) (labels c) v) (fun f l => sobj f l (fst E) (snd E) (labels c) v) (Obj []) KObjEmpty defs c v fuel
                 ltac:(reflexivity) ltac:(reflexivity) ltac:(intros f0; destruct f0; reflexivity) kvs ts HF fuel (le_n _)).
      destruct fuel; reflexivity.
    - (* string *) rename H0 into IHp. apply compiles_S. intros m e s tr Hm Hsc Hfs. destruct (IHp m e s Hm Hsc Hfs) as (ts & s1 & E1 & O1).
      exists (sum_or (KStr []) ts), [], s1. split; [rewrite c_str, E1; reflexivity|]. apply (holds_imp O1).
      intros defs R1 fuel c E v HI. pose proof (R1 fuel c E v HI) as HF.
      rewrite (sum_correct (part_one (fst E) (snd E) (labels c) v) (fun f l => sstr f l (fst E) (snd E) (labels c) v) (TStr []) (KStr []) defs c v fuel
                 ltac:(reflexivity) ltac:(reflexivity) ltac:(intros f0; destruct f0; reflexivity) parts ts HF fuel (le_n _)).
      destruct fuel; reflexivity.
    - (* . as [$a, $b, ...] | r *) rename H0 into IHl, H2 into IHr. intros m e s tr Hm Hsc Hfs. destruct m as [|[|[|m]]]; try lia.
      destruct (IHl (S (S m)) e s [] ltac:(lia) Hsc Hfs) as (k1 & tr1 & s1 & E1 & O1). destruct (with_vars_env xs e) as [EV EF].
      destruct (IHr (S (S m)) (Compile.with_vars xs e) s1 tr ltac:(lia) (in_scope_app _ b e _ EV Hsc) ltac:(rewrite EF; exact Hfs)) as (k2 & tr2 & s2 & E2 & O2).
      exists (KPipe k1 (Some (PatIdx (arr_cpats 0 xs))) k2), tr2, s2. split; [rewrite c_bind, E1, pat_vars_arr, E2, c_pat_arr; reflexivity|].
      apply (holds_imp (holds_and closures_sim_ok O1 O2)). intros defs [R1 R2]. apply (runs_as_S closures_sim_ok). intros fuel c E v HI.
      cbn [closures_sim Sem sem strip push_defs fold_left]. unfold flat_items. rewrite arr_items_vars, arr_its_snd.
      apply (bind_items_runs e xs (arr_its 0 xs) (arr_cpats 0 xs) k1 k2 l r defs (arr_its_snd xs 0) R1 R2); [|exact HI].
      intros F c' E' y _. apply arr_keys.
    - (* . as {k: $a, ...} | r *) rename H0 into IHl, H2 into IHk, H4 into IHr. intros m e s tr Hm Hsc Hfs. destruct m as [|[|[|m]]]; try lia.
      destruct (IHl (S (S m)) e s [] ltac:(lia) Hsc Hfs) as (k1 & tr1 & s1 & E1 & O1).
      set (xs := map snd kxs). destruct (with_vars_env xs e) as [EV EF].
      destruct (IHr (S (S m)) (Compile.with_vars xs e) s1 tr ltac:(lia) (in_scope_app _ b e _ EV Hsc) ltac:(rewrite EF; exact Hfs)) as (k2 & tr2 & s2 & E2 & O2).
      destruct (IHk (S m) e s2 ltac:(lia) Hsc Hfs) as (cks & s3 & E3 & L3 & O3).
      exists (KPipe k1 (Some (PatIdx (map (fun k => (k, PatVar)) cks))) k2), tr2, s3. split; [rewrite c_bind, E1, pat_vars_obj; fold xs; rewrite E2, c_pat_obj, E3; reflexivity|].
      apply (holds_imp (holds_and closures_sim_ok (holds_and closures_sim_ok O1 O2) O3)). intros defs [[R1 R2] [RB _]].
      apply (runs_as_S closures_sim_ok). intros fuel c E v HI.
      assert (SN : map snd (map (fun kx : pterm * bytes => (KT (fst kx), snd kx)) kxs) = xs) by (unfold xs; rewrite map_map; reflexivity).
      cbn [closures_sim Sem sem strip push_defs fold_left]. unfold flat_items. rewrite obj_items_vars, SN.
      apply (bind_items_runs e xs _ (map (fun k => (k, PatVar)) cks) k1 k2 l r defs SN R1 R2); [|exact HI].
      (* the keys are evaluated on the matched value, in the context of the binding *)
      intros F c' E' y HI'. clear - RB HI'. revert cks RB. induction kxs as [|[k x] kxs IH]; intros cks RB; cbn [map] in *; inversion RB as [|? ck ? cks' Hk1 Hks]; subst; constructor.
      + cbn [fst snd]. split; [reflexivity|]. intros m0 Hm0. exact (Hk1 m0 c' E' y (inv_le closures_sim_ok _ _ _ _ _ _ Hm0 HI')).
      + apply IH. exact Hks.
    - (* no arguments *) apply (compiles_args_nil closures_sim_ok).
      intros e defs. split; [constructor|]. intros ps fuel c E v acc L _. destruct ps; [|discriminate]. destruct fuel; reflexivity.
    - (* an argument *) apply (compiles_args_cons closures_sim_ok); [|assumption..].
      intros e k1 cr defs R1 [RB RV]. split; [constructor; assumption|].
      intros ps fuel c E v acc L HI. destruct ps as [|p ps]; [discriminate|]. destruct fuel as [|fuel]; [reflexivity|].
      cbn [map combine mkctx svals]. apply (inv_pred closures_sim_ok) in HI. destruct (is_var_name p).
      + rewrite bind_vars_cons, (R1 fuel c E v HI), smap_over_sbind. apply sbind_ext. intros y.
        rewrite (RV ps fuel c E v (cons_var y acc) ltac:(cbn in L; lia) HI), smap_smap. reflexivity.
      + rewrite bind_vars_fun. apply (RV ps fuel c E v (cons_fun k1 c acc) ltac:(cbn in L; lia) HI).
    - apply (compiles_parts_nil closures_sim_ok).
    - apply (compiles_parts_cons closures_sim_ok); [|assumption]; cbn; auto.
    - apply (compiles_parts_cons closures_sim_ok); [|assumption]; cbn; auto.
    - apply (compiles_parts_cons closures_sim_ok); [|assumption]; cbn; auto.
    - apply (compiles_parts_cons closures_sim_ok); [|assumption]; cbn; auto.
    - apply (compiles_parts_cons closures_sim_ok); [|assumption]; cbn; auto.
    - (* no entry *) intros m e s Hm Hsc Hfs. exists [], s. split; [reflexivity|]. apply (holds_ret closures_sim_ok). intros. constructor.
    - (* {$x} *) rename H0 into IHx, H2 into IHr. intros m e s Hm Hsc Hfs.
      destruct (IHx m e s [] Hm Hsc Hfs) as (kx & trx & s1 & E1 & O1). destruct (IHr m e s1 Hm Hsc Hfs) as (tr_ & s2 & E2 & O2).
      exists (KObjSingle (KStr (tl x)) kx :: tr_), s2. split; [cbn [c_kvs c_ent]; unfold iterm; rewrite E1, E2; reflexivity|].
      apply (holds_imp (holds_and closures_sim_ok O1 O2)). intros defs [R1 R2] F c E v HI. constructor; [|exact (R2 F c E v HI)].
      intros fuel Hle. destruct fuel as [|mm]; [reflexivity|]. rewrite run_objsingle. unfold ent_one, ent_sem.
      rewrite (R1 mm c E v (inv_le closures_sim_ok defs F mm e c E ltac:(lia) HI)).
      assert (run defs mm (KStr (tl x)) c v = match mm with O => SBot | S _ => sone (TStr (tl x)) end) as -> by (destruct mm; reflexivity).
      reflexivity.
    - (* {k} *) rename H into Hnv, H1 into IHk, H3 into IHr. intros m e s Hm Hsc Hfs.
      destruct (IHk m e s [] Hm Hsc Hfs) as (kk & trk & s1 & E1 & O1). destruct (IHr m e s1 Hm Hsc Hfs) as (tr_ & s2 & E2 & O2).
      exists (KObjSingle kk (KPath KId [(Index kk, false)]) :: tr_), s2. split; [cbn [c_kvs]; rewrite (c_ent_key _ _ _ _ Hnv); unfold iterm; rewrite E1, E2; reflexivity|].
      apply (holds_imp (holds_and closures_sim_ok O1 O2)). intros defs [R1 R2] F c E v HI. constructor; [|exact (R2 F c E v HI)].
      pose proof (runs_path closures_sim_ok _ _ _ _ _ _ (runs_id closures_sim_ok e defs) (explodes_cons closures_sim_ok e (Index kk) (PIndex k) false _ _ defs R1 (explodes_nil closures_sim_ok e defs))) as R1'.
      intros fuel Hle. destruct fuel as [|mm]; [reflexivity|]. rewrite run_objsingle. unfold ent_one. rewrite (ent_sem_key _ _ _ Hnv).
      pose proof (inv_le closures_sim_ok defs F mm e c E ltac:(lia) HI) as HI'. rewrite (R1 mm c E v HI'), (R1' mm c E v HI'). reflexivity.
    - (* {k: v} *) rename H0 into IHk, H2 into IHv, H4 into IHr. intros m e s Hm Hsc Hfs.
      destruct (IHk m e s [] Hm Hsc Hfs) as (kk & trk & s1 & E1 & O1). destruct (IHv m e s1 [] Hm Hsc Hfs) as (kv & trv & s2 & E2 & O2).
      destruct (IHr m e s2 Hm Hsc Hfs) as (tr_ & s3 & E3 & O3).
      exists (KObjSingle kk kv :: tr_), s3. split; [cbn [c_kvs]; rewrite c_ent_kv; unfold iterm; rewrite E1, E2, E3; reflexivity|].
      apply (holds_imp (holds_and closures_sim_ok (holds_and closures_sim_ok O1 O2) O3)). intros defs [[R1 R2] R3] F c E v0 HI. constructor; [|exact (R3 F c E v0 HI)].
      intros fuel Hle. destruct fuel as [|mm]; [reflexivity|]. rewrite run_objsingle. unfold ent_one.
      assert (ent_sem (fun t => sem mm t (fst E) (snd E) (labels c) v0) mm (k, Some v)
              = smap (fun kv => from_map [kv]) (sbind (sem mm k (fst E) (snd E) (labels c) v0) (fun a => smap (fun y => (a, y)) (sem mm v (fst E) (snd E) (labels c) v0)))) as ->
        by (destruct k; reflexivity).
      pose proof (inv_le closures_sim_ok defs F mm e c E ltac:(lia) HI : inv defs mm e c E) as HI'.
      rewrite (R1 mm c E v0 HI'), (R2 mm c E v0 HI'). reflexivity.
    - (* no part *) intros m e s Hm Hsc Hfs. exists [], s. split; [reflexivity|]. apply (holds_ret closures_sim_ok). intros. constructor.
    - (* literal text *) rename H0 into IHr. intros m e s Hm Hsc Hfs. destruct (IHr m e s Hm Hsc Hfs) as (tr_ & s2 & E2 & O2).
      exists (KStr x :: tr_), s2. split; [cbn [c_strs]; rewrite E2; reflexivity|]. apply (holds_imp O2).
      intros defs R2 F c E v HI. constructor; [|exact (R2 F c E v HI)]. intros fuel Hle. destruct fuel; reflexivity.
    - (* interpolation *) rename H0 into IHf, H2 into IHr. intros m e s Hm Hsc Hfs.
      destruct (IHf m e s [] Hm Hsc Hfs) as (kf & trf & s1 & E1 & O1). destruct (IHr m e s1 Hm Hsc Hfs) as (tr_ & s2 & E2 & O2).
      exists (KPipe kf None KToString :: tr_), s2. split; [cbn [c_strs]; unfold iterm; rewrite E1, E2; reflexivity|].
      apply (holds_imp (holds_and closures_sim_ok O1 O2)). intros defs [R1 R2] F c E v HI. constructor; [|exact (R2 F c E v HI)].
      intros fuel Hle. destruct fuel as [|mm]; [reflexivity|]. rewrite run_pipe. unfold part_one, part_sem.
      rewrite (R1 mm c E v (inv_le closures_sim_ok defs F mm e c E ltac:(lia) HI)). apply sbind_ext. intros y. destruct mm; reflexivity.
  Qed.

  Theorem compile_closures b fs n t : frag b fs n t -> forall m e s tr, (n <= m)%nat -> scoped b e -> fscoped fs e ->
    exists k trr s', c_term g m e s t tr = ((k, trr), s') /\ extends s s'
      /\ forall defs, covers s s' defs -> forall fuel c rho phi v, agrees defs fuel e c rho -> funs_ok defs fuel (e_funs e) rho phi ->
          run defs fuel k c v = sem fuel t rho phi (labels c) v.
  Proof.
    intros H m e s tr Hm Hsc Hfs. destruct (proj1 compile_closures_mut b fs n t H m e s tr Hm Hsc Hfs) as (k & trr & s' & E & X & R).
    exists k, trr, s'. split; [exact E|]. split; [exact X|]. intros defs Hc fuel c rho phi v Hag Hfr. exact (R defs Hc fuel c (rho, phi) v (conj Hag Hfr)).
  Qed.

  Corollary compile_closures_closed n t : frag [] [] n t ->
    exists k trr s', c_term g n empty_env empty_cst t [] = ((k, trr), s') /\ c_errs s' = 0%nat
      /\ forall fuel v, run (c_defs s') fuel k {| vars := []; labels := 0 |} v = sem fuel t [] [] 0 v.
  Proof.
    intros H. destruct (compile_closures [] [] n t H n empty_env empty_cst [] (le_n _)) as (k & trr & s' & E & X & R).
    - intros x [].
    - intros f ar [].
    - exists k, trr, s'. split; [exact E|]. split; [exact (proj1 X)|]. intros fuel v.
      apply (R (c_defs s') ltac:(intros i Hi; reflexivity) fuel {| vars := []; labels := 0 |} [] [] v).
      + split; [reflexivity|]. split; [exists [], []; split; [reflexivity|constructor]|constructor].
      + intros f ar fe Hf. discriminate.
  Qed.
End CF.

(** 1 as $x | def f(g; $a): if . then [g, $a] else (2 | f(g; 5)) end; f(. + $x; 3) *)
Definition closures_ex : pterm :=
  let vx := of_ascii [36; 120]%Z in let va := of_ascii [36; 97]%Z in let gg := of_ascii [103]%Z in let f := of_ascii [102]%Z in
  let num c := PNum (of_ascii [c]%Z) in
  PBinOp (num 49%Z) (BPipe (Some (PPVar vx)))
    (PDef [PDefn f [gg; va]
             (PIte [(PId, PArr (Some (PBinOp (PCall gg []) BComma (PVar va))))]
                   (Some (PBinOp (num 50%Z) (BPipe None) (PCall f [PCall gg []; num 53%Z]))))]
       (PCall f [PBinOp PId (BMath Add) (PVar vx); num 51%Z])).
Example frag_closures_ex : frag [] [] 12 closures_ex.
Proof.
  unfold closures_ex. cbv zeta. apply f_bind; [constructor|]. apply f_def.
  - apply f_ite; [constructor| |].
    + apply f_arr. apply f_comma; [apply f_call; [cbn; auto|apply fa_nil]|apply f_var; cbn; auto].
    + apply f_pipe; [constructor|]. apply f_call; [left; reflexivity|].
      apply fa_cons; [apply f_call; [cbn; auto|apply fa_nil]|apply fa_cons; [constructor|apply fa_nil]].
  - apply f_call; [left; reflexivity|]. apply fa_cons; [apply f_math; [constructor|apply f_var; cbn; auto]|apply fa_cons; [constructor|apply fa_nil]].
Qed.
Example sem_closures_ex d : sem d 14 closures_ex [] [] 0 Null = sone (Arr [vint 3; vint 5]).
Proof. vm_compute. reflexivity. Qed.

(** 1 as $x | {"a": ., $x, "b\($x)": [..], "c": (if $x then 2 end)} *)
Definition objects_ex : pterm :=
  let vx := of_ascii [36; 120]%Z in
  let str c := PStr None [SPStr (of_ascii [c]%Z)] in
  PBinOp (PNum (of_ascii [49]%Z)) (BPipe (Some (PPVar vx)))
    (PObj [(str 97%Z, Some PId); (PVar vx, None);
           (PStr None [SPStr (of_ascii [98]%Z); SPTerm (PVar vx)], Some (PArr (Some PRecurse)));
           (str 99%Z, Some (PIte [(PVar vx, PNum (of_ascii [50]%Z))] None))]).
Example frag_objects_ex : frag [] [] 12 objects_ex.
Proof.
  unfold objects_ex. cbv zeta. apply f_bind; [constructor|]. apply f_obj.
  apply fk_kv; [apply f_str; repeat constructor|constructor|].
  apply fk_var; [apply f_var; cbn; auto|].
  apply fk_kv; [apply f_str; apply fs_lit; apply fs_term; [apply f_var; cbn; auto|apply fs_nil]|apply f_arr; constructor|].
  apply fk_kv; [apply f_str; repeat constructor|apply f_ite1; [apply f_var; cbn; auto|constructor]|apply fk_nil].
Qed.
Example sem_objects_ex d : (forall v, d v = of_ascii [49]%Z) ->
  sem d 14 objects_ex [] [] 0 Null
  = sone (Obj [(TStr (of_ascii [97]%Z), Null); (TStr (of_ascii [120]%Z), vint 1);
               (TStr (of_ascii [98; 49]%Z), Arr [Null]); (TStr (of_ascii [99]%Z), vint 2)]).
Proof. intros Hd. vm_compute. rewrite ?Hd. reflexivity. Qed.

(** [1, 2] as [$a, $b] | {"k": $b} as {"k": $c} | [$a, $c] *)
Definition patterns_ex : pterm :=
  let va := of_ascii [36; 97]%Z in let vb := of_ascii [36; 98]%Z in let vc := of_ascii [36; 99]%Z in
  let num c := PNum (of_ascii [c]%Z) in let k := PStr None [SPStr (of_ascii [107]%Z)] in
  PBinOp (PArr (Some (PBinOp (num 49%Z) BComma (num 50%Z)))) (BPipe (Some (PPArr (map PPVar [va; vb]))))
    (PBinOp (PObj [(k, Some (PVar vb))]) (BPipe (Some (PPObj (map (fun kx => (fst kx, PPVar (snd kx))) [(k, vc)]))))
       (PArr (Some (PBinOp (PVar va) BComma (PVar vc))))).
Example frag_patterns_ex : frag [] [] 14 patterns_ex.
Proof.
  unfold patterns_ex. cbv zeta. apply f_bind_arr.
  - apply f_arr. apply f_comma; constructor.
  - apply f_bind_obj.
    + apply f_obj. apply fk_kv; [apply f_str; repeat constructor|apply f_var; cbn; auto|apply fk_nil].
    + apply fa_cons; [apply f_str; repeat constructor|apply fa_nil].
    + apply f_arr. apply f_comma; apply f_var; cbn; auto.
Qed.
Example sem_patterns_ex d : sem d 16 patterns_ex [] [] 0 Null = sone (Arr [vint 1; vint 2]).
Proof. vm_compute. reflexivity. Qed.
