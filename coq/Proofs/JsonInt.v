(** JSON integers of any size survive print-then-parse: the number lexer (hifijson's state machine as modelled in
    Json/Read.v) accepts exactly the digits that [Display] wrote, and the literal is read as the same integer, in front of
    any byte at which the lexer stops. *)
From Coq Require Import ZArith Bool List Lia.
From JaqV Require Import Base.Bytes Val.Num Json.Write Json.Read Proofs.DigitLaws.
Import ListNotations.
Local Open Scope Z_scope.

Lemma is_digit_dig d : is_digit d = true -> is_dig (bz d) = true.
Proof. intros H. exact H. Qed.

Lemma is_dig_range r : is_dig r = true <-> 48 <= r <= 57.
Proof. unfold is_dig. rewrite andb_true_iff, !Z.leb_le. reflexivity. Qed.

Definition ends_number (rest : bytes) : Prop :=
  match rest with [] => True | c :: _ => forall st, num_part st (bz c) = None end.

Lemma lex_num_end st rest acc : ends_number rest -> lex_num st rest acc = (rev acc, st, rest).
Proof. destruct rest as [|c r]; [reflexivity|]. intros H. cbn [lex_num]. rewrite (H st). reflexivity. Qed.

(** the lexer's state while it has read a sign or digits only; the state at the start, [signed_digits], is [plain 101], as
    after an 'e', so that a sign may follow *)
Definition plain (r : Z) : nstate := {| n_read := r; n_zero := false; n_dot := false; n_exp := false |}.

(** a digit is accepted at the start, after the sign unless it is 0, and after a digit *)
Lemma digit_step r d : is_digit d = true -> r = 101 \/ (r = 45 /\ 49 <= bz d) \/ is_dig r = true ->
  num_part (plain r) (bz d) = Some (plain (bz d)).
Proof.
  intros Hd Hr. unfold num_part, plain. cbn [n_read n_zero n_dot n_exp negb]. rewrite !andb_true_r.
  change (is_dig (bz d)) with (is_digit d). rewrite Hd. apply is_digit_range in Hd.
  destruct (Z.eqb_spec (bz d) 45); [lia|]. rewrite andb_false_r.
  assert (((r =? 0) || (r =? 45)) && (bz d =? 48) = false) as ->; [|reflexivity].
  destruct Hr as [->|[[-> Hr]|Hr]].
  - reflexivity.
  - destruct (Z.eqb_spec (bz d) 48); [lia|reflexivity].
  - apply is_dig_range in Hr. destruct (Z.eqb_spec r 0); [lia|]. destruct (Z.eqb_spec r 45); [lia|]. reflexivity.
Qed.

Lemma lex_digits ds : forall r d acc rest, all_digits (d :: ds) = true -> ends_number rest ->
  r = 101 \/ (r = 45 /\ 49 <= bz d) \/ is_dig r = true ->
  exists c, lex_num (plain r) (d :: ds ++ rest) acc = (rev acc ++ d :: ds, plain c, rest).
Proof.
  induction ds as [|d2 ds IH]; intros r d acc rest Hd Hs Hr; cbn [all_digits forallb] in Hd; apply andb_prop in Hd as [Hd1 Hd2];
    cbn [lex_num]; rewrite (digit_step r d Hd1 Hr).
  - exists (bz d). apply (lex_num_end _ rest (d :: acc) Hs).
  - destruct (IH (bz d) d2 (d :: acc) rest Hd2 Hs) as (c & L); [right; right; exact Hd1|].
    exists c. cbn [app]. rewrite L. cbn [rev]. rewrite <- app_assoc. reflexivity.
Qed.

Lemma all_digits_last ds : ds <> [] -> all_digits ds = true -> forall pre, last_is_digit (pre ++ ds) = true.
Proof.
  intros Hne Hd pre. destruct (exists_last Hne) as (x & d & ->). rewrite all_digits_app in Hd. apply andb_prop in Hd as [_ H].
  cbn in H. rewrite andb_true_r in H. unfold last_is_digit. rewrite app_assoc, rev_app_distr. exact H.
Qed.

Lemma lex_literal (neg : bool) d ds rest : all_digits (d :: ds) = true -> (neg = true -> 49 <= bz d) -> ends_number rest ->
  let text := (if neg then [x2d] else []) ++ d :: ds in
  (exists c, lex_num signed_digits (text ++ rest) [] = (text, plain c, rest)) /\ last_is_digit text = true.
Proof.
  intros Hd Hn Hs text. split; [|apply all_digits_last; [discriminate|exact Hd]].
  unfold text. rewrite <- app_assoc. destruct neg.
  - cbn [app lex_num]. change (num_part signed_digits (bz x2d)) with (Some (plain 45)). cbn iota.
    apply (lex_digits ds 45 d [x2d] rest Hd Hs). right; left. split; [reflexivity|apply Hn; reflexivity].
  - apply (lex_digits ds 101 d [] rest Hd Hs). left. reflexivity.
Qed.

Lemma parse_num_int text r rest z : lex_num signed_digits (text ++ rest) [] = (text, plain r, rest) ->
  last_is_digit text = true -> parse_int_dec text = Some z -> parse_num (text ++ rest) = POk (int_or_big z) rest.
Proof.
  intros L LD HP. unfold parse_num. rewrite L. cbn [plain n_dot n_exp negb andb].
  destruct text as [|c [|c2 t]]; [discriminate| |rewrite LD, HP; reflexivity].
  destruct (strip_prefix l_infinity rest); [|rewrite LD, HP; reflexivity].
  (* a single digit in front of "Infinity": the digit is no sign, and [from_str] reads it as [parse_int_dec] does *)
  rewrite LD. apply is_digit_range in LD. destruct (Z.eqb_spec (bz c) 43); [lia|]. destruct (Z.eqb_spec (bz c) 45); [lia|].
  unfold from_str. rewrite HP. reflexivity.
Qed.

Theorem parse_num_print_rest z rest : ends_number rest -> parse_num (Z_to_dec z ++ rest) = POk (int_or_big z) rest.
Proof.
  intros Hs. pose proof (parse_int_dec_print z) as HP. unfold Z_to_dec in *. destruct (Z.ltb_spec z 0) as [Hn|Hp].
  - destruct (nat_digits_spec (- z) ltac:(lia)) as (Hne & Hd & _ & Hh).
    destruct (nat_digits (- z)) as [|d ds]; [congruence|].
    destruct (lex_literal true d ds rest Hd ltac:(intros _; apply Hh; lia) Hs) as [[c L] LD]. exact (parse_num_int _ c _ _ L LD HP).
  - destruct (nat_digits_spec z Hp) as (Hne & Hd & _).
    destruct (nat_digits z) as [|d ds]; [congruence|].
    destruct (lex_literal false d ds rest Hd ltac:(discriminate) Hs) as [[c L] LD]. exact (parse_num_int _ c _ _ L LD HP).
Qed.

Theorem json_integer_roundtrip z : parse_num (show_num (int_or_big z)) = POk (int_or_big z) [].
Proof. rewrite show_int_or_big, <- (app_nil_r (Z_to_dec z)). apply parse_num_print_rest. exact I. Qed.
