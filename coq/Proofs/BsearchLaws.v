(** C08/C12: `bsearch($x)` (jaq-json/src/funs.rs: `a.binary_search(&x)`, the branch-free binary search of the standard
    library, modelled in Std/Natives.v as [bs_loop]/[bsearch]).  On an array that is sorted by the order of values a
    non-negative result is the position of an element equal to $x, there is one whenever $x occurs, and a negative result
    -1 - r names the insertion point. *)
From Coq Require Import ZArith List Lia Sorting.Sorted.
From JaqV Require Import Val.Val Std.Natives Proofs.ValOrder.
Import ListNotations.

Lemma bsearch_unfold a x : a <> [] ->
  bsearch a x = let base := bs_loop (length a) a x 0 (length a) in
                match val_cmp (nth base a Null) x with
                | Eq => Z.of_nat base
                | Lt => (-1 - Z.of_nat (base + 1))%Z
                | Gt => (-1 - Z.of_nat base)%Z
                end.
Proof. intros H. destruct a; [congruence|reflexivity]. Qed.

Section BS.
  Variable a : list val.
  Variable x : val.
  Let cmp (i : nat) : comparison := val_cmp (nth i a Null) x.
  (** the array is sorted as far as [x] can tell: smaller elements, then equal ones, then greater ones;
      that the greater ones come last is all the loop needs *)
  Hypothesis above : forall i j, (i <= j < length a)%nat -> cmp i = Gt -> cmp j = Gt.

  Definition inv (base size : nat) : Prop :=
    (1 <= size)%nat /\ (base + size <= length a)%nat
    /\ (forall i, (i < base)%nat -> cmp i <> Gt)
    /\ (forall i, (base + size <= i < length a)%nat -> cmp i = Gt)
    /\ (base = 0%nat \/ cmp base <> Gt).

  Lemma loop_inv : forall fuel base size, (size <= fuel)%nat -> inv base size -> inv (bs_loop fuel a x base size) 1.
  Proof.
    induction fuel as [|fuel IH]; intros base size Hf (H1 & H2 & H3 & H4 & H5); [lia|].
    cbn [bs_loop]. destruct (Nat.leb_spec size 1) as [L|L].
    { assert (size = 1%nat) by lia. subst size. repeat split; assumption. }
    assert (Hh : (1 <= size / 2 /\ 2 * (size / 2) <= size)%nat)
      by (split; [apply (Nat.div_le_lower_bound size 2 1); lia|apply Nat.mul_div_le; lia]).
    generalize dependent (size / 2)%nat. intros half Hh.
    remember (base + half)%nat as mid eqn:Em. fold (cmp mid).
    assert (Move : cmp mid <> Gt -> inv mid (size - half)).
    { intros N. repeat split; try lia.
      - intros i Hi E. apply N. apply (above i mid); [lia|exact E].
      - intros i Hi. apply H4. lia.
      - right. exact N. }
    destruct (cmp mid) eqn:Cm; apply IH; try lia; [apply Move; congruence ..|].
    (* Gt: stay *) repeat split; try lia; try assumption.
    intros i Hi. apply (above mid i); [lia|exact Cm].
  Qed.

  Hypothesis nonempty : a <> [].

  Lemma final_inv : inv (bs_loop (length a) a x 0 (length a)) 1.
  Proof.
    apply loop_inv; [lia|]. assert (1 <= length a)%nat by (destruct a; [congruence|cbn; lia]).
    repeat split; try lia.
  Qed.

  Theorem bsearch_found z : (0 <= z)%Z -> bsearch a x = z -> cmp (Z.to_nat z) = Eq /\ (Z.to_nat z < length a)%nat.
  Proof.
    rewrite (bsearch_unfold a x nonempty). cbv zeta.
    destruct final_inv as (_ & B & _). fold (cmp (bs_loop (length a) a x 0 (length a))).
    destruct (cmp (bs_loop (length a) a x 0 (length a))) eqn:C; intros Hz E; try lia.
    subst z. rewrite Nat2Z.id. split; [exact C|lia].
  Qed.

  (** that the smaller ones come first says where an absent [x] belongs *)
  Hypothesis below : forall i j, (i <= j < length a)%nat -> cmp j = Lt -> cmp i = Lt.

  Theorem bsearch_absent r : bsearch a x = (-1 - Z.of_nat r)%Z ->
    (r <= length a)%nat /\ (forall i, (i < r)%nat -> cmp i = Lt) /\ (forall i, (r <= i < length a)%nat -> cmp i = Gt).
  Proof.
    rewrite (bsearch_unfold a x nonempty). cbv zeta.
    destruct final_inv as (_ & B & I3 & I4 & I5). set (b := bs_loop (length a) a x 0 (length a)) in *. fold (cmp b).
    destruct (cmp b) eqn:C; intros E; try lia.
    - (* Lt: insertion after b *)
      assert (r = (b + 1)%nat) by lia. subst r. split; [lia|]. split.
      + intros i Hi. apply (below i b); [lia|exact C].
      + intros i Hi. apply I4. lia.
    - (* Gt: b never moved *)
      assert (r = b) by lia. subst r. destruct I5 as [Z0|N]; [|congruence]. split; [lia|]. split; [intros i Hi; lia|].
      intros i Hi. apply (above b i); [lia|exact C].
  Qed.

  Corollary bsearch_complete i : (i < length a)%nat -> cmp i = Eq -> (0 <= bsearch a x)%Z.
  Proof.
    intros Hi E. destruct (Z_lt_le_dec (bsearch a x) 0) as [Neg|]; [|assumption]. exfalso.
    destruct (bsearch_absent (Z.to_nat (-1 - bsearch a x))) as (R & L & G); [rewrite Z2Nat.id by lia; lia|].
    destruct (Nat.lt_ge_cases i (Z.to_nat (-1 - bsearch a x))) as [Hl|Hg].
    - specialize (L i Hl). congruence.
    - specialize (G i ltac:(lia)). congruence.
  Qed.
End BS.

Lemma sorted_nth {A} (R : A -> A -> Prop) (d : A) l : StronglySorted R l -> forall i j, (i < j < length l)%nat -> R (nth i l d) (nth j l d).
Proof.
  induction 1 as [|a l Hs IH Hall]; intros i j Hij; [cbn in Hij; lia|].
  destruct j as [|j]; [lia|]. destruct i as [|i].
  - cbn [nth]. rewrite Forall_forall in Hall. apply Hall. apply nth_In. cbn [length] in Hij. lia.
  - cbn [nth]. apply IH. cbn [length] in Hij. lia.
Qed.

Section SORTED.
  Variable P : val -> Prop.
  Hypothesis T : tpo val_cmp P.
  Variable a : list val.
  Variable x : val.
  Hypothesis Pa : Forall P a.
  Hypothesis Px : P x.
  Hypothesis sorted : StronglySorted (fun u v => val_cmp u v <> Gt) a.

  Lemma Pnth i : (i < length a)%nat -> P (nth i a Null).
  Proof. intros H. rewrite Forall_forall in Pa. apply Pa. apply nth_In. exact H. Qed.

  Lemma le_nth i j : (i <= j < length a)%nat -> val_cmp (nth i a Null) (nth j a Null) <> Gt.
  Proof.
    intros H. destruct (Nat.eq_dec i j) as [->|N].
    - rewrite (tp_refl _ _ T) by (apply Pnth; lia). discriminate.
    - apply (sorted_nth _ Null a sorted). lia.
  Qed.

  Lemma sorted_below i j : (i <= j < length a)%nat -> val_cmp (nth j a Null) x = Lt -> val_cmp (nth i a Null) x = Lt.
  Proof. intros H. apply (tp_le_lt val_cmp P T _ (nth j a Null)); [apply Pnth; lia ..|exact Px|apply le_nth; exact H]. Qed.

  Lemma sorted_above i j : (i <= j < length a)%nat -> val_cmp (nth i a Null) x = Gt -> val_cmp (nth j a Null) x = Gt.
  Proof.
    intros H Ei. pose proof (Pnth i ltac:(lia)) as Pi. pose proof (Pnth j ltac:(lia)) as Pj.
    assert (E : val_cmp x (nth j a Null) = Lt).
    { (* x < a_i <= a_j *)
      apply (tp_lt_le val_cmp P T x (nth i a Null)); auto using le_nth.
      rewrite (tp_anti _ _ T _ _ Pi Px), Ei. reflexivity. }
    rewrite (tp_anti _ _ T _ _ Px Pj), E. reflexivity.
  Qed.

  (** `bsearch($x)` on a sorted array: a non-negative result is the position of an element equal to $x, and there is one
      whenever $x occurs; a negative result -1 - r names the insertion point r: everything before it is smaller, everything
      from it on greater *)
  Theorem bsearch_sorted : a <> [] ->
    (forall z, (0 <= z)%Z -> bsearch a x = z -> val_cmp (nth (Z.to_nat z) a Null) x = Eq /\ (Z.to_nat z < length a)%nat)
    /\ (forall i, (i < length a)%nat -> val_cmp (nth i a Null) x = Eq -> (0 <= bsearch a x)%Z)
    /\ (forall r, bsearch a x = (-1 - Z.of_nat r)%Z ->
          (r <= length a)%nat /\ (forall i, (i < r)%nat -> val_cmp (nth i a Null) x = Lt)
          /\ (forall i, (r <= i < length a)%nat -> val_cmp (nth i a Null) x = Gt)).
  Proof.
    intros Hne. split; [|split].
    - intros z Hz E. exact (bsearch_found a x sorted_above Hne z Hz E).
    - intros i Hi E. exact (bsearch_complete a x sorted_above Hne sorted_below i Hi E).
    - intros r E. exact (bsearch_absent a x sorted_above Hne sorted_below r E).
  Qed.
End SORTED.

Example bsearch_examples :
  bsearch [vint 1; vint 3; vint 5] (vint 3) = 1%Z /\ bsearch [vint 1; vint 3; vint 5] (vint 4) = (-3)%Z
  /\ bsearch [vint 1; vint 3; vint 5] (vint 0) = (-1)%Z /\ bsearch [vint 1; vint 3; vint 5] (vint 9) = (-4)%Z /\ bsearch [] (vint 1) = (-1)%Z.
Proof. repeat split. Qed.
