(** C03: reduce and foreach consume their source on demand.  A fold asks its source for the next item only after the update
    has yielded a state for the current one: when the update yields nothing, fails, breaks or halts, the rest of the source
    is never looked at - whatever it would do (read inputs, fail, never end) -, and foreach delivers the output for the
    current item before the source is asked again. *)
From Coq Require Import List.
From JaqV Require Import Base.Bytes Base.Stream Val.Val Core.Syntax Core.Natives Core.Run Proofs.MonadLaws Proofs.FoldLaws.
From JaqV Require Proofs.CompileCorrect.
Import ListNotations.

Section FOLDLAZY.
  Variable d : val -> bytes.
  Variable nr : nat -> bytes -> list narg -> val -> option (str val).
  Variable defs : list term.
  Notation run := (run d nr defs).
  Notation fold_go := CompileCorrect.fold_go.

  Lemma fold_stops_on_empty step emit fin y (k k' : unit -> str val) acc :
    step y acc = SNil -> fold_go step emit fin (SCons y k) acc = SNil /\ fold_go step emit fin (SCons y k') acc = SNil.
  Proof. intros H. cbn [CompileCorrect.fold_go]. rewrite H. split; reflexivity. Qed.

  Lemma fold_stops_on_exception step emit fin y (k : unit -> str val) acc e :
    step y acc = SExn e -> fold_go step emit fin (SCons y k) acc = SExn e.
  Proof. intros H. cbn [CompileCorrect.fold_go]. rewrite H. reflexivity. Qed.

  Lemma foreach_delivers_first step fin y (k : unit -> str val) acc z t :
    step y acc = SCons z t ->
    exists tl, fold_go step (fun _ z => sone z) fin (SCons y k) acc = SCons z tl.
  Proof. intros H. cbn [CompileCorrect.fold_go]. rewrite H. cbn [sbind sone sapp]. eexists. reflexivity. Qed.

  (** the interpreter: `reduce/foreach xs as $x (init; upd)` when the update on the first item of the source yields nothing
      (or an exception): the result does not depend on the rest [k] of the source *)
  Theorem fold_ignores_rest_after_empty fuel xs init upd ft c v i y (k : unit -> str val) :
    run (S fuel) init c v = sone i -> run fuel xs c v = SCons y k ->
    run (S fuel) upd (cons_var y c) i = SNil ->
    run (S (S fuel)) (KFold xs PatVar init upd ft) c v = SNil.
  Proof. intros Hi Hx Hu. rewrite (fold_expansion d nr defs), Hi, Hx, sbind_sone_l. apply (fold_stops_on_empty _ _ _ y k k), Hu. Qed.

  Theorem fold_ignores_rest_after_exception fuel xs init upd ft c v i y (k : unit -> str val) e :
    run (S fuel) init c v = sone i -> run fuel xs c v = SCons y k ->
    run (S fuel) upd (cons_var y c) i = SExn e ->
    run (S (S fuel)) (KFold xs PatVar init upd ft) c v = SExn e.
  Proof. intros Hi Hx Hu. rewrite (fold_expansion d nr defs), Hi, Hx, sbind_sone_l. apply fold_stops_on_exception, Hu. Qed.

  (** foreach without projection: the state for the first item is delivered whatever the rest of the source is *)
  Theorem foreach_first_output fuel xs init upd c v i y (k : unit -> str val) z t :
    run (S fuel) init c v = sone i -> run fuel xs c v = SCons y k ->
    run (S fuel) upd (cons_var y c) i = SCons z t ->
    exists tl, run (S (S fuel)) (KFold xs PatVar init upd (Foreach None)) c v = SCons z tl.
  Proof. intros Hi Hx Hu. rewrite (fold_expansion d nr defs), Hi, Hx, sbind_sone_l. eapply foreach_delivers_first, Hu. Qed.
End FOLDLAZY.
