(** The position model of element updates (jaq-json/src/lib.rs: map_index, map_range as modelled in Core/Run.v):
    an update applies its filter to exactly the value the corresponding read yields, puts the result at exactly that position
    and leaves every other element - and the order of the keys of an object - unchanged. *)
From Coq Require Import ZArith Bool List Lia.
From JaqV Require Import Base.Stream Val.Num Val.Val Val.Err Val.Index Core.Run Proofs.SafeLaws.
Import ListNotations.
Local Open Scope Z_scope.

Lemma replace_at_length A k (y : A) l : length (replace_at k y l) = length l.
Proof. revert k; induction l as [|x l IH]; intros [|k]; cbn; auto. Qed.
Lemma replace_at_same A k (y : A) l : (k < length l)%nat -> nth_error (replace_at k y l) k = Some y.
Proof. revert k; induction l as [|x l IH]; intros [|k] H; cbn in *; try lia; [reflexivity|apply IH; lia]. Qed.
Lemma replace_at_other A k (y : A) l j : j <> k -> nth_error (replace_at k y l) j = nth_error l j.
Proof. revert k j; induction l as [|x l IH]; intros [|k] [|j] H; cbn; try reflexivity; try congruence. apply IH. congruence. Qed.

Lemma remove_at_length A k (l : list A) : (k < length l)%nat -> S (length (remove_at k l)) = length l.
Proof. revert k; induction l as [|x l IH]; intros [|k] H; cbn in *; try lia. rewrite IH by lia. reflexivity. Qed.
Lemma remove_at_before A k (l : list A) j : (j < k)%nat -> nth_error (remove_at k l) j = nth_error l j.
Proof. revert k j; induction l as [|x l IH]; intros [|k] [|j] H; cbn; try reflexivity; try lia. apply IH. lia. Qed.
Lemma remove_at_after A k (l : list A) j : (k <= j)%nat -> nth_error (remove_at k l) j = nth_error l (S j).
Proof.
  revert k j; induction l as [|x l IH]; intros k j H.
  - destruct k, j; reflexivity.
  - destruct k as [|k]; [reflexivity|]. destruct j as [|j]; [lia|]. cbn [remove_at nth_error]. apply IH. lia.
Qed.

Lemma skipn_add A (l : list A) : forall n m, skipn n (skipn m l) = skipn (n + m) l.
Proof.
  induction l as [|x l IH]; intros n m; [rewrite !skipn_nil; reflexivity|].
  destruct m as [|m]; [rewrite Nat.add_0_r; reflexivity|]. rewrite Nat.add_succ_r. cbn [skipn]. apply IH.
Qed.

(** [splice l s t y]: the [t] elements from position [s] are replaced by [y] *)
Section SPLICE.
  Context {A : Type}.
  Variables (l y : list A) (s t : Z).
  Hypothesis Hs : 0 <= s.
  Hypothesis Ht : 0 <= t.
  Hypothesis Hst : s + t <= Z.of_nat (length l).

  (** what lies before and after the window stays, the window holds [y] *)
  Lemma splice_frame : firstn (Z.to_nat s) (splice l s t y) = firstn (Z.to_nat s) l
                       /\ skipn (Z.to_nat s + length y) (splice l s t y) = skipn (Z.to_nat (s + t)) l
                       /\ slice (splice l s t y) s (Z.of_nat (length y)) = y.
  Proof using Hs Ht Hst.
    assert (L : length (firstn (Z.to_nat s) l) = Z.to_nat s) by (rewrite firstn_length; lia).
    unfold slice, splice. split; [|split].
    - rewrite firstn_app, L, Nat.sub_diag, firstn_firstn, Nat.min_id. apply app_nil_r.
    - rewrite app_assoc, skipn_app, app_length, L, Nat.sub_diag. rewrite skipn_all2 by (rewrite app_length; lia). reflexivity.
    - rewrite Nat2Z.id, skipn_app, L, Nat.sub_diag. rewrite skipn_all2 by lia. cbn [app skipn].
      rewrite firstn_app, Nat.sub_diag, firstn_all. apply app_nil_r.
  Qed.
  Lemma splice_length : Z.of_nat (length (splice l s t y)) = Z.of_nat (length l) - t + Z.of_nat (length y).
  Proof. unfold splice. rewrite !app_length, firstn_length, skipn_length, Nat.min_l by lia. lia. Qed.
  (** writing back what was read changes nothing *)
  Lemma splice_slice_id : splice l s t (slice l s t) = l.
  Proof.
    unfold splice, slice. replace (Z.to_nat (s + t)) with (Z.to_nat t + Z.to_nat s)%nat by lia.
    rewrite <- skipn_add. rewrite firstn_skipn. apply firstn_skipn.
  Qed.
End SPLICE.

Lemma pos_usize_num i p : val_as_pos_usize i = Ok p ->
  exists n, i = Num n /\ as_pos_usize n = Some p /\ (exists z, n = Int z \/ n = Big z) /\ 0 <= snd p.
Proof.
  unfold val_as_pos_usize. destruct i as [| | n | | | |]; try discriminate.
  destruct (as_pos_usize n) as [q|] eqn:E; [|discriminate]. intros H. injection H as <-.
  exists n. split; [reflexivity|]. split; [exact E|]. unfold as_pos_usize in E.
  destruct n as [z|z|?|?]; try discriminate; injection E as <-; cbn [snd].
  - split; [exists z; left; reflexivity|lia].
  - split; [exists z; right; reflexivity|]. assert (0 <= usize_max) by (vm_compute; discriminate). lia.
Qed.

(** ** arrays, `.[i]`: inside, the update applies the filter to the element that is read and replaces (or removes) exactly it *)
Theorem arr_index_inside a i p k opt f :
  val_as_pos_usize i = Ok p -> abs_index p (Z.of_nat (length a)) = Some k ->
  exists x, nth_error a (Z.to_nat k) = Some x
    /\ index_opt (Arr a) i = Ok (Some x)
    /\ map_index (Arr a) i opt f
       = match first (f x) with
         | FSome y => sone (Arr (replace_at (Z.to_nat k) y a))
         | FNone => sone (Arr (remove_at (Z.to_nat k) a))
         | FFail t => fin_str t
         end.
Proof.
  intros Hp Hk. destruct (pos_usize_num i p Hp) as (n & -> & Hn & (z & Hz) & Hm).
  pose proof (abs_index_inside p _ k Hk ltac:(lia) Hm) as Hr.
  destruct (nth_error a (Z.to_nat k)) as [x|] eqn:E; [|apply nth_error_None in E; lia].
  exists x. split; [reflexivity|]. split.
  - destruct Hz as [-> | ->]; cbn [index_opt]; rewrite Hn, Hk, E; reflexivity.
  - unfold map_index. rewrite Hp, Hk, E. reflexivity.
Qed.

(** outside, reading yields null and the update is refused - or skipped under `?` *)
Theorem arr_index_outside a i p f :
  val_as_pos_usize i = Ok p -> abs_index p (Z.of_nat (length a)) = None ->
  vindex (Arr a) i = Ok Null
  /\ map_index (Arr a) i false f = serr (EOob i)
  /\ map_index (Arr a) i true f = sone (Arr a).
Proof.
  intros Hp Hk. destruct (pos_usize_num i p Hp) as (n & -> & Hn & (z & Hz) & Hm). split; [|split].
  - unfold vindex. destruct Hz as [-> | ->]; cbn [index_opt]; rewrite Hn, Hk; reflexivity.
  - unfold map_index. rewrite Hp, Hk. reflexivity.
  - unfold map_index. rewrite Hp, Hk. reflexivity.
Qed.

(** a position that is not an integer is an error for reading and for updating *)
Theorem arr_index_wrong a i e f : val_as_pos_usize i = Err e -> (forall o, i <> Obj o) -> (forall y, i <> Arr y) ->
  map_index (Arr a) i false f = serr e /\ map_index (Arr a) i true f = sone (Arr a) /\ exists e', index_opt (Arr a) i = Err e'.
Proof.
  intros He Ho Ha. unfold map_index. destruct i as [| | n | | | y| o]; try (rewrite He; repeat split; eexists; reflexivity).
  - rewrite He. repeat split. unfold val_as_pos_usize in He. destruct n as [z|z|?|?]; try discriminate; eexists; reflexivity.
  - exfalso. apply (Ha y). reflexivity.
  - exfalso. apply (Ho o). reflexivity.
Qed.

Lemma range_bound_nonneg o p : range_bound o = Ok (Some p) -> 0 <= snd p.
Proof.
  unfold range_bound. destruct o as [v|]; [|discriminate]. destruct v; try discriminate;
    (destruct (val_as_pos_usize _) as [q|] eqn:E; [|discriminate]); cbn [rmap]; intros H; injection H as <-;
    destruct (pos_usize_num _ _ E) as (? & _ & _ & _ & H); exact H.
Qed.

(** slice bounds are clipped into [0, len] and the taken length is never negative *)
Lemma abs_bound_clipped o len d : (forall p, o = Some p -> 0 <= snd p) -> 0 <= d <= len -> 0 <= abs_bound o len d <= len.
Proof.
  intros Hp Hd. destruct o as [[nn m]|]; [|exact Hd]. specialize (Hp _ eq_refl). cbn in *.
  destruct nn; [lia|]. destruct (Z.leb_spec m len); lia.
Qed.

Lemma skip_take_clipped r len : 0 <= len ->
  (forall p, fst r = Some p -> 0 <= snd p) -> (forall p, snd r = Some p -> 0 <= snd p) ->
  let '(s, t) := skip_take r len in 0 <= s <= len /\ 0 <= t /\ s + t <= len.
Proof.
  destruct r as [a b]. cbn [fst snd]. intros Hlen Ha Hb. unfold skip_take. cbn [fst snd].
  pose proof (abs_bound_clipped a len 0 Ha ltac:(lia)). pose proof (abs_bound_clipped b len len Hb ltac:(lia)). lia.
Qed.

Lemma slice_window r ri len s t : range_int r = Ok ri -> 0 <= len -> skip_take ri len = (s, t) ->
  0 <= s <= len /\ 0 <= t /\ s + t <= len.
Proof.
  unfold range_int. destruct (range_bound (fst r)) as [a|] eqn:Ea; [|discriminate]. cbn [rbind].
  destruct (range_bound (snd r)) as [b|] eqn:Eb; [|discriminate]. cbn [rbind]. intros H Hl E. injection H as <-.
  pose proof (skip_take_clipped (a, b) len Hl) as C. rewrite E in C.
  apply C; cbn [fst snd]; intros p ->; eapply range_bound_nonneg; eassumption.
Qed.

(** arrays: reading `.[i:j]` and updating it use the same clipped window; the update replaces the window by the first output
    and keeps everything before and after it *)
Theorem arr_slice_update a r ri opt f s t :
  range_int r = Ok ri -> skip_take ri (Z.of_nat (length a)) = (s, t) ->
  vrange (Arr a) r = Ok (Arr (slice a s t))
  /\ map_range (Arr a) r opt f
     = match first (f (Arr (slice a s t))) with
       | FSome (Arr y) => sone (Arr (splice a s t y))
       | FSome y => serr (ETyp y TArr)
       | FNone => sone (Arr (splice a s t []))
       | FFail u => fin_str u
       end
  /\ (0 <= s /\ 0 <= t /\ s + t <= Z.of_nat (length a))
  /\ forall y, firstn (Z.to_nat s) (splice a s t y) = firstn (Z.to_nat s) a
               /\ skipn (Z.to_nat s + length y) (splice a s t y) = skipn (Z.to_nat (s + t)) a
               /\ slice (splice a s t y) s (Z.of_nat (length y)) = y
               /\ splice a s t (slice a s t) = a.
Proof.
  intros Hr Hst. pose proof (slice_window r ri _ s t Hr (Zle_0_nat _) Hst) as ((Hs & _) & Ht & Hl).
  split; [unfold vrange; rewrite Hr; cbn [rmap]; rewrite Hst; reflexivity|].
  split; [unfold map_range; rewrite Hr, Hst; reflexivity|]. split; [lia|].
  intros y. destruct (splice_frame a y s t Hs Ht Hl) as (F1 & F2 & F3). repeat split; try assumption. apply splice_slice_id; assumption.
Qed.

(** byte strings: the same with bytes as positions *)
Theorem bytes_slice_update b r ri opt f s t :
  range_int r = Ok ri -> skip_take ri (Z.of_nat (length b)) = (s, t) ->
  vrange (BStr b) r = Ok (BStr (slice b s t))
  /\ map_range (BStr b) r opt f
     = match first (f (BStr (slice b s t))) with
       | FSome (BStr y) => sone (BStr (splice b s t y))
       | FSome y => serr (ETyp y TStrT)
       | FNone => sone (BStr (splice b s t []))
       | FFail u => fin_str u
       end
  /\ forall y, firstn (Z.to_nat s) (splice b s t y) = firstn (Z.to_nat s) b
               /\ skipn (Z.to_nat s + length y) (splice b s t y) = skipn (Z.to_nat (s + t)) b
               /\ slice (splice b s t y) s (Z.of_nat (length y)) = y.
Proof.
  intros Hr Hst. pose proof (slice_window r ri _ s t Hr (Zle_0_nat _) Hst) as ((Hs & _) & Ht & Hl).
  split; [unfold vrange; rewrite Hr; cbn [rmap]; rewrite Hst; reflexivity|].
  split; [unfold map_range; rewrite Hr, Hst; reflexivity|].
  intros y. apply splice_frame; assumption.
Qed.

(** text strings: positions are characters; the window starts and ends on character boundaries (SafeLaws), and the update
    replaces exactly its bytes *)
Theorem text_slice_update b r ri opt f s t :
  range_int r = Ok ri -> skip_take_chars ri b = (s, t) ->
  vrange (TStr b) r = Ok (TStr (slice b s t))
  /\ map_range (TStr b) r opt f
     = match first (f (TStr (slice b s t))) with
       | FSome (TStr y) => sone (TStr (splice b s t y))
       | FSome y => serr (ETyp y TStrT)
       | FNone => sone (TStr (splice b s t []))
       | FFail u => fin_str u
       end
  /\ boundary b s /\ (t = 0 \/ boundary b (s + t))
  /\ (0 < t -> forall y, firstn (Z.to_nat s) (splice b s t y) = firstn (Z.to_nat s) b
               /\ skipn (Z.to_nat s + length y) (splice b s t y) = skipn (Z.to_nat (s + t)) b
               /\ slice (splice b s t y) s (Z.of_nat (length y)) = y).
Proof.
  intros Hr Hst.
  split; [unfold vrange; rewrite Hr; cbn [rmap]; rewrite Hst; reflexivity|].
  split; [unfold map_range; rewrite Hr, Hst; reflexivity|].
  pose proof (skip_take_chars_inside ri b) as Hin. rewrite Hst in Hin. destruct Hin as (Hs & Ht & Hsl & Hl).
  unfold skip_take_chars in Hst. injection Hst as Es Et.
  assert (Bs : boundary b s).
  { rewrite <- Es. destruct (fst ri) as [p|]; [apply byte_index_boundary|apply zero_boundary]. }
  split; [exact Bs|]. split.
  - destruct (Z.max_spec 0 (match snd ri with Some p => byte_index b p | None => Z.of_nat (length b) end - s)) as [[H1 H2]|[H1 H2]].
    + right. rewrite <- Et. rewrite Es, H2. replace (s + (_ - s)) with (match snd ri with Some p => byte_index b p | None => Z.of_nat (length b) end) by lia.
      destruct (snd ri) as [p|]; [apply byte_index_boundary|left; reflexivity].
    + left. rewrite <- Et, Es. exact H2.
  - intros Hpos y. destruct Hl as [->|Hl]; [lia|]. apply splice_frame; assumption.
Qed.

(** ** objects: any value as key *)
Lemma find_index_spec o k : forall j i, find_index o k j = Some i ->
  (j <= i)%nat /\ exists k' x, nth_error o (i - j) = Some (k', x) /\ hws_eqb (hash_writes k) (hash_writes k') && val_eqb k k' = true.
Proof.
  induction o as [|[k' x] o IH]; intros j i H; [discriminate|]. cbn [find_index] in H.
  destruct (hws_eqb (hash_writes k) (hash_writes k') && val_eqb k k') eqn:E.
  - injection H as <-. split; [lia|]. exists k', x. rewrite Nat.sub_diag. split; [reflexivity|exact E].
  - destruct (IH (S j) i H) as (Hle & k'' & x' & Hn & He). split; [lia|]. exists k'', x'. split; [|exact He].
    replace (i - j)%nat with (S (i - S j)) by lia. exact Hn.
Qed.

(** reading probes the same entry the update finds *)
Lemma find_hashed_index o k : forall j,
  find_hashed val_eqb o k = match find_index o k j with Some i => option_map snd (nth_error o (i - j)) | None => None end.
Proof.
  induction o as [|[k' x] o IH]; intros j; [reflexivity|]. cbn [find_hashed find_index].
  destruct (hws_eqb (hash_writes k) (hash_writes k') && val_eqb k k') eqn:E.
  - rewrite Nat.sub_diag. reflexivity.
  - rewrite (IH (S j)). destruct (find_index o k (S j)) as [i|] eqn:F; [|reflexivity].
    destruct (find_index_spec o k (S j) i F) as (Hle & _). replace (i - j)%nat with (S (i - S j)) by lia. reflexivity.
Qed.

Theorem obj_read o k : (length o <> 1)%nat ->
  index_opt (Obj o) k = Ok (match find_index o k 0 with Some i => option_map snd (nth_error o i) | None => None end).
Proof.
  intros Hl.
  assert (E : find_hashed val_eqb o k = match find_index o k 0 with Some i => option_map snd (nth_error o i) | None => None end).
  { rewrite (find_hashed_index o k 0). destruct (find_index o k 0); [rewrite Nat.sub_0_r|]; reflexivity. }
  rewrite <- E. cbn [index_opt]. f_equal. unfold get, get_with.
  destruct o as [|[k1 x1] [|kx2 o]]; [reflexivity|cbn in Hl; congruence|reflexivity].
Qed.

Lemma map_fst_replace_at (o : obj) i k' y : forall x, nth_error o i = Some (k', x) -> map fst (replace_at i (k', y) o) = map fst o.
Proof.
  revert i; induction o as [|[k1 x1] o IH]; intros [|i] x H; cbn in *; try discriminate.
  - injection H as -> _. reflexivity.
  - f_equal. eapply IH. exact H.
Qed.

(** a present key: the update applies the filter to the stored value and puts the first output in its place; the keys and
    their order stay as they are, every other entry is untouched; without output the entry is removed *)
Theorem obj_update_present o k i opt f :
  find_index o k 0 = Some i ->
  exists k' x, nth_error o i = Some (k', x)
    /\ map_index (Obj o) k opt f
       = match first (f x) with
         | FSome y => sone (Obj (replace_at i (k', y) o))
         | FNone => sone (Obj (swap_remove_at i o))
         | FFail t => fin_str t
         end
    /\ forall y, map fst (replace_at i (k', y) o) = map fst o
                 /\ nth_error (replace_at i (k', y) o) i = Some (k', y)
                 /\ forall j, j <> i -> nth_error (replace_at i (k', y) o) j = nth_error o j.
Proof.
  intros F. destruct (find_index_spec o k 0 i F) as (_ & k' & x & Hn & _). rewrite Nat.sub_0_r in Hn.
  exists k', x. split; [exact Hn|]. split.
  - unfold map_index. rewrite F, Hn. reflexivity.
  - intros y. split; [eapply map_fst_replace_at; exact Hn|]. split.
    + apply replace_at_same. apply nth_error_Some. congruence.
    + intros j Hj. apply replace_at_other. exact Hj.
Qed.

(** an absent key: the filter runs on null and its first output is appended under the key; without output nothing changes *)
Theorem obj_update_absent o k opt f :
  find_index o k 0 = None ->
  map_index (Obj o) k opt f
  = match first (f Null) with
    | FSome y => sone (Obj (o ++ [(k, y)]))
    | FNone => sone (Obj o)
    | FFail t => fin_str t
    end.
Proof. intros F. unfold map_index. rewrite F. reflexivity. Qed.

Theorem update_refuses_null i f :
  map_index Null i false f = serr (ETyp Null TIter) /\ map_index Null i true f = sone Null
  /\ forall r, map_range Null r false f = serr (ETyp Null TArr) /\ map_range Null r true f = sone Null.
Proof. repeat split; destruct i; reflexivity. Qed.
