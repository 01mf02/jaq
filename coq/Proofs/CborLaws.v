(** C14, CBOR: reading what the writer wrote yields the value, for every value of the class [cb] (null, booleans, machine
    integers, big integers of any size, floats - every binary64 pattern, written in the shortest of the three widths that
    holds it exactly (Proofs/CborFloat.v) -, byte strings, valid UTF-8 text, arrays and objects of such values with any such
    values as keys), whatever follows in the input; several values in one input come back as the sequence; an array of indefinite length is
    read as the same array; a decimal literal comes back as the float it denotes. *)
From Coq Require Import ZArith Bool List Lia.
From JaqV Require Import Base.F64 Base.Bytes Val.Num Val.Val Val.Utf8 Fmts.Cbor Proofs.DigitLaws Proofs.SafeLaws Proofs.ValInd Proofs.DecodeLaws Proofs.JsonValue Proofs.CborFloat.
Import ListNotations.
Local Open Scope Z_scope.

Lemma be_length n z : length (be n z) = n.
Proof. induction n as [|n IH]; cbn [be length]; [reflexivity|]. rewrite IH. reflexivity. Qed.

Lemma be_val_acc_be n : forall z acc, 0 <= z -> be_val_acc acc (be n z) = acc * 256 ^ Z.of_nat n + z mod 256 ^ Z.of_nat n.
Proof.
  induction n as [|n IH]; intros z acc Hz.
  - cbn [be be_val_acc]. change (256 ^ Z.of_nat 0) with 1. rewrite Z.mod_1_r. lia.
  - cbn [be be_val_acc]. rewrite IH by exact Hz.
    assert (P : 0 < 256 ^ Z.of_nat n) by (apply Z.pow_pos_nonneg; lia).
    rewrite bz_zb by (apply Z.mod_pos_bound; lia).
    replace (Z.of_nat (S n)) with (Z.of_nat n + 1) by lia. rewrite Z.pow_add_r by lia. change (256 ^ 1) with 256.
    rewrite (Z.rem_mul_r z (256 ^ Z.of_nat n) 256) by lia. lia.
Qed.

Lemma be_val_be n z : 0 <= z < 256 ^ Z.of_nat n -> be_val (be n z) = z.
Proof. intros H. unfold be_val. rewrite be_val_acc_be by lia. rewrite Z.mod_small by lia. lia. Qed.

Lemma byte_len_bound z : 0 < z -> z < 256 ^ Z.of_nat (byte_len z).
Proof.
  intros Hz. unfold byte_len. pose proof (Z.log2_nonneg z) as L0.
  rewrite Z2Nat.id by (pose proof (Z.div_pos (Z.log2 z) 8); lia).
  change 256 with (2 ^ 8). rewrite <- Z.pow_mul_r by (pose proof (Z.div_pos (Z.log2 z) 8); lia).
  pose proof (Z.log2_spec z Hz) as [_ Hs].
  eapply Z.lt_le_trans; [exact Hs|]. apply Z.pow_le_mono_r; [lia|].
  pose proof (Z.mul_succ_div_gt (Z.log2 z) 8). lia.
Qed.

Lemma to_bytes_be_val z : 0 <= z -> be_val (to_bytes_be z) = z.
Proof.
  intros Hz. unfold to_bytes_be. destruct (Z.leb_spec z 0) as [H0|H0].
  - assert (z = 0) by lia. subst z. reflexivity.
  - apply be_val_be. split; [lia|apply byte_len_bound; exact H0].
Qed.

Lemma take_app (a rest : bytes) : take (Z.of_nat (length a)) (a ++ rest) = Some (a, rest).
Proof.
  unfold take. rewrite app_length. destruct (Z.ltb_spec (Z.of_nat (length a + length rest)) (Z.of_nat (length a))) as [H|H]; [lia|].
  rewrite Nat2Z.id. rewrite firstn_app, Nat.sub_diag, firstn_all, skipn_app, Nat.sub_diag, skipn_all. cbn [firstn skipn]. rewrite !app_nil_r. reflexivity.
Qed.

Definition two64z : Z := 18446744073709551616.

Lemma first_byte major x : 0 <= major < 8 -> 0 <= x < 32 ->
  bz (zb (major * 32 + x)) / 32 = major /\ bz (zb (major * 32 + x)) mod 32 = x.
Proof.
  intros Hm Hx. rewrite bz_zb by lia. split.
  - rewrite Z.div_add_l by lia. rewrite Z.div_small by lia. lia.
  - rewrite Z.add_comm, Z.mod_add by lia. apply Z.mod_small. lia.
Qed.

Lemma title_wide major code (w : nat) arg rest : 0 <= major < 8 -> 24 <= code <= 27 ->
  w = (if code =? 24 then 1%nat else if code =? 25 then 2%nat else if code =? 26 then 4%nat else 8%nat) ->
  0 <= arg < 256 ^ Z.of_nat w ->
  title ((zb (major * 32 + code) :: be w arg) ++ rest) = DOk (major, Some arg, w) rest.
Proof.
  intros Hm Hc Hw Hlt. cbn [app title]. destruct (first_byte major code Hm) as [-> ->]; [lia|].
  destruct (Z.ltb_spec code 24); [lia|]. destruct (Z.eqb_spec code 31); [lia|]. destruct (Z.leb_spec 28 code); [lia|].
  rewrite <- Hw. rewrite <- (be_length w arg) at 1. rewrite take_app. rewrite be_val_be by lia. reflexivity.
Qed.

(** the shortest width: the argument itself below 24, else one of the codes 24..27 and as many bytes as [title] takes for it *)
Lemma head_shape major arg : 0 <= arg ->
  (arg <= 23 /\ head major arg = [zb (major * 32 + arg)]) \/
  exists code w, 24 <= code <= 27 /\ head major arg = zb (major * 32 + code) :: be w arg /\
    w = (if code =? 24 then 1%nat else if code =? 25 then 2%nat else if code =? 26 then 4%nat else 8%nat) /\
    (arg < two64z -> arg < 256 ^ Z.of_nat w).
Proof.
  intros Ha. unfold head, two64z.
  destruct (Z.leb_spec arg 23); [left; split; [assumption|reflexivity]|right].
  destruct (Z.leb_spec arg 255); [exists 24, 1%nat; repeat split; cbn; lia|].
  destruct (Z.leb_spec arg 65535); [exists 25, 2%nat; repeat split; cbn; lia|].
  destruct (Z.leb_spec arg 4294967295); [exists 26, 4%nat|exists 27, 8%nat]; repeat split; cbn; lia.
Qed.

(** the width that [title] reports is the number of bytes after the first *)
Lemma title_head major arg rest : 0 <= major < 8 -> 0 <= arg < two64z ->
  title (head major arg ++ rest) = DOk (major, Some arg, pred (length (head major arg))) rest.
Proof.
  intros Hm Ha. destruct (head_shape major arg (proj1 Ha)) as [[H ->]|(code & w & Hc & -> & Hw & Hlt)].
  - cbn [app title]. destruct (first_byte major arg Hm) as [-> ->]; [lia|].
    destruct (Z.ltb_spec arg 24); [reflexivity|lia].
  - cbn [length pred]. rewrite be_length. apply title_wide; [exact Hm|exact Hc|exact Hw|lia].
Qed.

Definition no_break (t : bytes) : Prop := exists b r, t = b :: r /\ bz b <> 255.

Lemma no_break_cons z r : 0 <= z < 255 -> no_break (zb z :: r).
Proof. intros H. exists (zb z), r. rewrite bz_zb by lia. split; [reflexivity|lia]. Qed.

Lemma no_break_app t u : no_break t -> no_break (t ++ u).
Proof. intros (b & r & -> & H). exists b, (r ++ u). split; [reflexivity|exact H]. Qed.

Lemma head_first major arg : 0 <= major <= 6 -> 0 <= arg -> no_break (head major arg).
Proof.
  intros Hm Ha. destruct (head_shape major arg Ha) as [[H ->]|(code & w & Hc & -> & _)]; apply no_break_cons; lia.
Qed.

Lemma float_item b fuel rest : 0 <= b < two64 -> parse (S fuel) (enc_float b ++ rest) = DOk (Num (Flt b)) rest.
Proof.
  intros Hb. unfold enc_float.
  destruct (short_float 15 10 b) as [h|] eqn:E16.
  { destruct (half_back b h Hb E16) as [Hh L]. cbn [parse]. change (zb 249) with (zb (7 * 32 + 25)).
    rewrite (title_wide 7 25 2 h rest); [|lia|lia|reflexivity|exact Hh]. cbn [Z.eqb Pos.eqb]. rewrite L. reflexivity. }
  destruct (short_float 127 23 b) as [h|] eqn:E32.
  { destruct (single_back b h Hb E32) as [Hh L]. cbn [parse]. change (zb 250) with (zb (7 * 32 + 26)).
    rewrite (title_wide 7 26 4 h rest); [|lia|lia|reflexivity|exact Hh]. cbn [Z.eqb Pos.eqb]. rewrite L. reflexivity. }
  cbn [parse]. change (zb 251) with (zb (7 * 32 + 27)). rewrite (title_wide 7 27 8 b rest); [|lia|lia|reflexivity|exact Hb]. reflexivity.
Qed.

Lemma biguint_item u rest : 0 <= u -> Z.of_nat (length (to_bytes_be u)) < two64z ->
  biguint ((head 2 (Z.of_nat (length (to_bytes_be u))) ++ to_bytes_be u) ++ rest) = DOk u rest.
Proof.
  intros Hu Hl. unfold biguint. rewrite <- app_assoc, title_head by lia.
  cbn [Z.eqb Pos.eqb]. rewrite take_app, to_bytes_be_val by exact Hu. reflexivity.
Qed.

Definition small (n : nat) : Prop := Z.of_nat n < two64z.

Inductive cb : val -> Prop :=
| cb_null : cb Null
| cb_bool b : cb (Bool b)
| cb_int i : in_isize i = true -> cb (Num (Int i))
| cb_flt b : 0 <= b < two64 -> cb (Num (Flt b))
| cb_big z : small (length (to_bytes_be (if 0 <=? z then z else - z - 1))) -> cb (Num (Big z))
| cb_tstr s : valid_utf8 s = true -> small (length s) -> cb (TStr s)
| cb_bstr s : small (length s) -> cb (BStr s)
| cb_arr a : Forall cb a -> small (length a) -> cb (Arr a)
| cb_obj o : Forall (fun kv => cb (fst kv) /\ cb (snd kv)) o -> wf_obj o -> small (length o) -> cb (Obj o).

Lemma lossy_valid s : valid_utf8 s = true -> to_lossy s = s.
Proof.
  unfold valid_utf8, to_lossy. intros H. rewrite <- (chunks_partition s) at 2.
  induction (chunks s) as [|[c bs] r IH]; [reflexivity|].
  cbn [forallb fst] in H. apply andb_true_iff in H. destruct H as [Hc Hr].
  cbn [flat_map map concat fst snd]. destruct c; [|discriminate]. rewrite IH by exact Hr. reflexivity.
Qed.

Lemma items_ok (p : bytes -> dres val) (enc : val -> bytes) : forall l k acc rest,
  (forall x, In x l -> forall r, p (enc x ++ r) = DOk x r) -> (length l < k)%nat ->
  items p k (Z.of_nat (length l)) (flat_map enc l ++ rest) acc = DOk (rev acc ++ l) rest.
Proof.
  induction l as [|x l IH]; intros k acc rest Hp Hk.
  - destruct k; [cbn [length] in Hk; lia|]. cbn. rewrite app_nil_r. reflexivity.
  - destruct k; [lia|]. cbn [items]. destruct (Z.leb_spec (Z.of_nat (length (x :: l))) 0) as [H|H]; [cbn [length] in H; lia|].
    cbn [flat_map]. rewrite <- app_assoc. rewrite (Hp x (or_introl eq_refl)).
    replace (Z.of_nat (length (x :: l)) - 1) with (Z.of_nat (length l)) by (cbn [length]; lia).
    rewrite IH; [|intros y Hy; apply Hp; right; exact Hy|cbn [length] in Hk; lia].
    cbn [rev]. rewrite <- app_assoc. reflexivity.
Qed.

Definition flatten_pairs (o : list (val * val)) : list val := flat_map (fun kv => [fst kv; snd kv]) o.

Lemma pair_up_flatten o : pair_up (flatten_pairs o) = o.
Proof. induction o as [|[k v] o IH]; [reflexivity|]. cbn. f_equal. exact IH. Qed.

Lemma flatten_length o : length (flatten_pairs o) = (2 * length o)%nat.
Proof. induction o as [|[k v] o IH]; [reflexivity|]. cbn [flatten_pairs flat_map app length] in *. fold (flatten_pairs o). rewrite IH. lia. Qed.

Lemma flat_map_flatten (enc : val -> bytes) o :
  flat_map (fun kv => enc (fst kv) ++ enc (snd kv)) o = flat_map enc (flatten_pairs o).
Proof.
  induction o as [|[k v] o IH]; [reflexivity|]. cbn [flat_map flatten_pairs fst snd app]. fold (flatten_pairs o).
  rewrite IH, <- app_assoc. reflexivity.
Qed.

Lemma in_flatten x o : In x (flatten_pairs o) -> exists kv, In kv o /\ (x = fst kv \/ x = snd kv).
Proof.
  induction o as [|kv o IH]; [intros []|]. cbn [flatten_pairs flat_map app]. fold (flatten_pairs o).
  intros [H|[H|H]]; [exists kv; split; [left; reflexivity|left; auto]|exists kv; split; [left; reflexivity|right; auto]|].
  destruct (IH H) as (kv' & Hin & E). exists kv'. split; [right; exact Hin|exact E].
Qed.

Lemma wf_from_fold o : forall acc, wf_from acc o -> fold_left (fun m kv => insert m (fst kv) (snd kv)) o acc = acc ++ o.
Proof.
  induction o as [|[k v] o IH]; intros acc H; [rewrite app_nil_r; reflexivity|].
  cbn [wf_from] in H. destruct H as [Hi Hr]. cbn [fold_left fst snd]. rewrite Hi, IH by exact Hr. rewrite <- app_assoc. reflexivity.
Qed.

Lemma collect_wf o : wf_obj o -> collect_obj o = Obj o.
Proof. intros H. unfold collect_obj. rewrite wf_from_fold by exact H. reflexivity. Qed.

Lemma enc_float_first b : no_break (enc_float b).
Proof. unfold enc_float. destruct (short_float 15 10 b); [|destruct (short_float 127 23 b)]; apply no_break_cons; lia. Qed.

Lemma encode_first n v : no_break (encode_f (S n) v).
Proof.
  destruct v as [| [] | x | s | s | a | o]; cbn [encode_f].
  1-3: apply no_break_cons; lia.
  2-5: apply no_break_app, head_first; lia.
  destruct x as [i|i|f|s]; cbn [enc_num].
  - destruct (Z.leb_spec 0 i); apply head_first; lia.
  - destruct (0 <=? i); apply no_break_app, head_first; lia.
  - apply enc_float_first.
  - apply enc_float_first.
Qed.

Lemma encode_nonempty v : encode v <> [].
Proof. destruct (encode_first (depth v) v) as (b & r & E & _). unfold encode. rewrite E. discriminate. Qed.

Lemma flat_map_ext_in {A B} (f g : A -> list B) l : (forall x, In x l -> f x = g x) -> flat_map f l = flat_map g l.
Proof. intros H. rewrite !flat_map_concat_map. f_equal. apply map_ext_in, H. Qed.

Lemma encode_fuel : forall n m v, (depth v < n)%nat -> (depth v < m)%nat -> encode_f n v = encode_f m v.
Proof.
  apply (fuel_above_depth (fun n m v => encode_f n v = encode_f m v)).
  intros n m [| | | | |a|o] IH; try reflexivity; cbn [encode_f]; f_equal; apply flat_map_ext_in.
  - intros x Hx. apply IH, depth_arr_in, Hx.
  - intros kv Hx. destruct (depth_obj_in kv o Hx). rewrite !IH by assumption. reflexivity.
Qed.

Lemma encode_arr a : encode (Arr a) = head 4 (Z.of_nat (length a)) ++ flat_map encode a.
Proof.
  unfold encode at 1. change (encode_f (S (depth (Arr a))) (Arr a)) with (head 4 (Z.of_nat (length a)) ++ flat_map (encode_f (depth (Arr a))) a).
  f_equal. apply flat_map_ext_in. intros x Hx. apply encode_fuel; [apply depth_arr_in, Hx|lia].
Qed.

Lemma encode_obj o : encode (Obj o) = head 5 (Z.of_nat (length o)) ++ flat_map (fun kv => encode (fst kv) ++ encode (snd kv)) o.
Proof.
  unfold encode at 1. change (encode_f (S (depth (Obj o))) (Obj o))
    with (head 5 (Z.of_nat (length o)) ++ flat_map (fun kv => encode_f (depth (Obj o)) (fst kv) ++ encode_f (depth (Obj o)) (snd kv)) o).
  f_equal. apply flat_map_ext_in. intros kv Hx. destruct (depth_obj_in kv o Hx). f_equal; apply encode_fuel; lia.
Qed.

Lemma depth_le_encode v : (depth v <= length (encode v))%nat.
Proof.
  induction v as [|b|x|s|s|a IH|o IH] using val_nest_ind; try (cbn [depth]; lia).
  - rewrite encode_arr, app_length. destruct (head_first 4 (Z.of_nat (length a)) ltac:(lia) ltac:(lia)) as (b & r & -> & _).
    pose proof (depth_arr_le a (length (flat_map encode a))) as D. cbn [length].
    specialize (D (fun x Hx => Nat.le_trans _ _ _ (IH x Hx) (in_flat_map_len encode a x Hx))). lia.
  - rewrite encode_obj, app_length. destruct (head_first 5 (Z.of_nat (length o)) ltac:(lia) ltac:(lia)) as (b & r & -> & _).
    set (F := fun kv : val * val => encode (fst kv) ++ encode (snd kv)).
    pose proof (depth_obj_le o (length (flat_map F o))) as D. cbn [length].
    enough (H : forall kv, In kv o -> (depth (fst kv) <= length (flat_map F o) /\ depth (snd kv) <= length (flat_map F o))%nat)
      by (specialize (D H); lia).
    intros kv Hkv. destruct (IH kv Hkv). pose proof (in_flat_map_len F o kv Hkv) as L. unfold F at 1 in L. rewrite app_length in L. lia.
Qed.

Lemma roundtrip_f v : cb v -> forall fuel rest, (depth v < fuel)%nat -> parse fuel (encode v ++ rest) = DOk v rest.
Proof.
  induction v as [v IH] using val_depth_ind. intros Hv [|fuel] rest Hf; [lia|].
  assert (T : two64z = 18446744073709551616) by reflexivity.      (* for [lia]: the bound of [small] as a numeral *)
  destruct Hv as [|b|i Hi|b Hb|z Hz|s Hs Hl|s Hl|a Ha Hl|o Ho Hw Hl]; unfold small in *.
  - reflexivity.
  - destruct b; reflexivity.
  - unfold encode. cbn [depth encode_f enc_num].
    pose proof (proj1 (NumExact.in_isize_spec i) Hi) as B. unfold two63 in B.
    destruct (Z.leb_spec 0 i) as [Hp|Hp].
    + cbn [parse]. rewrite title_head by lia. cbn [Z.eqb Pos.eqb]. unfold from_integral, int_or_big. rewrite Hi. reflexivity.
    + cbn [parse]. rewrite title_head by lia. cbn [Z.eqb Pos.eqb]. replace (- 1 - - (i + 1)) with i by lia.
      unfold from_integral, int_or_big. rewrite Hi. reflexivity.
  - apply float_item. exact Hb.
  - (* big integers: tag 2 or 3, then the magnitude as a byte string *)
    unfold encode. cbn [depth encode_f enc_num].
    destruct (Z.leb_spec 0 z) as [Hp|Hp]; rewrite <- app_assoc; cbn [parse]; rewrite title_head by lia; cbn [Z.eqb Pos.eqb].
    + rewrite biguint_item by lia. reflexivity.
    + rewrite biguint_item by lia. replace (- (- z - 1) - 1) with z by lia. reflexivity.
  - unfold encode. cbn [depth encode_f]. rewrite lossy_valid by exact Hs. rewrite <- app_assoc.
    cbn [parse]. rewrite title_head by lia. cbn [Z.eqb Pos.eqb]. rewrite take_app, Hs. reflexivity.
  - unfold encode. cbn [depth encode_f]. rewrite <- app_assoc.
    cbn [parse]. rewrite title_head by lia. cbn [Z.eqb Pos.eqb]. rewrite take_app. reflexivity.
  - rewrite encode_arr, <- app_assoc. cbn [parse]. rewrite title_head by lia. cbn [Z.eqb Pos.eqb].
    rewrite (items_ok (parse fuel) encode a); [reflexivity| |].
    + rewrite Forall_forall in Ha. intros x Hx r. pose proof (depth_arr_in x a Hx). apply IH; [assumption|apply Ha, Hx|lia].
    + rewrite app_length. pose proof (flat_map_length_ge encode a encode_nonempty). lia.
  - rewrite encode_obj, <- app_assoc. cbn [parse]. rewrite title_head by lia. cbn [Z.eqb Pos.eqb]. rewrite flat_map_flatten.
    replace (2 * Z.of_nat (length o)) with (Z.of_nat (length (flatten_pairs o))) by (rewrite flatten_length; lia).
    rewrite (items_ok (parse fuel) encode (flatten_pairs o)).
    + cbn [rev app]. rewrite pair_up_flatten, collect_wf by exact Hw. reflexivity.
    + rewrite Forall_forall in Ho. intros x Hx r. destruct (in_flatten x o Hx) as (kv & Hin & Ex).
      destruct (depth_obj_in kv o Hin). destruct (Ho _ Hin). destruct Ex as [-> | ->]; apply IH; try assumption; lia.
    + rewrite app_length. pose proof (flat_map_length_ge encode (flatten_pairs o) encode_nonempty). lia.
Qed.

Theorem cbor_roundtrip v rest : cb v -> parse_one (encode v ++ rest) = DOk v rest.
Proof.
  intros Hv. unfold parse_one. apply roundtrip_f; [exact Hv|]. rewrite app_length. pose proof (depth_le_encode v). lia.
Qed.

(** a decimal literal is written as the float it denotes (its spelling is the documented exception) *)
Theorem cbor_decimal s rest : 0 <= dec_to_f64 s < two64 ->
  parse_one (encode (Num (Dec s)) ++ rest) = DOk (Num (Flt (dec_to_f64 s))) rest.
Proof. intros H. unfold parse_one, encode. cbn [depth encode_f enc_num]. apply float_item. exact H. Qed.

Theorem cbor_many_roundtrip vs : Forall cb vs -> decode_many (flat_map encode vs) = (vs, MEnd).
Proof.
  unfold decode_many. intros H.
  assert (G : forall k, (length (flat_map encode vs) < k)%nat -> decode_many_f k (flat_map encode vs) = (vs, MEnd)).
  { induction H as [|v vs Hv Hvs IH]; intros k Hk.
    - destruct k; [cbn in Hk; lia|]. reflexivity.
    - destruct k; [lia|]. cbn [flat_map decode_many_f].
      pose proof (encode_nonempty v) as Hne.
      destruct (encode v ++ flat_map encode vs) eqn:Es; [apply app_eq_nil in Es as [Es _]; contradiction|].
      rewrite <- Es. rewrite cbor_roundtrip by exact Hv. rewrite IH; [reflexivity|].
      cbn [flat_map] in Hk. rewrite app_length in Hk. destruct (encode v); [contradiction|cbn [length] in Hk; lia]. }
  apply G. lia.
Qed.

(** the class is inhabited: nested values with keys that are no strings, integers on both sides of every width *)
Example cb_ex :
  let v := Obj [(TStr (of_ascii [97]), Arr [Num (Int 1); Null; BStr (of_ascii [255; 0]); Num (Int (-25)); Num (Int 65536); Num (Flt 4609434218613702656); Num (Flt 4591870180066957722); Num (Flt nan_bits)]);
                (Num (Int 2), TStr (of_ascii [195; 169]));
                (Arr [], Obj [(Bool true, Num (Big (2 ^ 70))); (Null, Num (Big (- 2 ^ 64 - 1)))])] in
  cb v /\ parse_one (encode v) = DOk v [].
Proof.
  cbv zeta.
  match goal with |- cb ?v /\ _ => assert (R : cb v) end.
  { repeat constructor; discriminate. }
  split; [exact R|]. rewrite <- (app_nil_r (encode _)). apply cbor_roundtrip. exact R.
Qed.

Lemma items_break_ok (p : bytes -> dres val) l k acc rest :
  (forall x, In x l -> forall r, p (encode x ++ r) = DOk x r) -> (length l < k)%nat ->
  items_break p k (flat_map encode l ++ zb 255 :: rest) acc = DOk (rev acc ++ l) rest.
Proof.
  intros Hp Hk. replace k with (length l + S (k - S (length l)))%nat by lia.
  rewrite (decode_acc_on encode (fun x => forall r, p (encode x ++ r) = DOk x r) (items_break p)).
  - cbn [items_break]. change (bz (zb 255)) with 255. cbn [Z.eqb Pos.eqb]. rewrite rev_app_distr, rev_involutive. reflexivity.
  - (* an item does not begin with the break byte *)
    intros x Hx n r a. destruct (encode_first (depth x) x) as (b & t & E & Hb). fold (encode x) in E.
    cbn [items_break]. rewrite E. cbn [app]. destruct (Z.eqb_spec (bz b) 255); [contradiction|].
    rewrite app_comm_cons, <- E, Hx. reflexivity.
  - apply Forall_forall, Hp.
Qed.

(** an array written with indefinite length (0x9f items 0xff), as other encoders may write it, is read as the same array *)
Theorem indefinite_array a rest : Forall cb a ->
  parse_one (zb 159 :: flat_map encode a ++ zb 255 :: rest) = DOk (Arr a) rest.
Proof.
  intros Ha. unfold parse_one. set (body := flat_map encode a ++ zb 255 :: rest). set (fuel := length (zb 159 :: body)). cbn [parse].
  change (title (zb 159 :: body)) with (DOk (4, @None Z, 0%nat) body). cbn [Z.eqb Pos.eqb].
  unfold body in *. rewrite (items_break_ok _ a); [reflexivity| |].
  - rewrite Forall_forall in Ha. intros x Hx r. apply roundtrip_f; [apply Ha, Hx|].
    pose proof (depth_le_encode x). pose proof (in_flat_map_len encode a x Hx). unfold fuel. cbn [length]. rewrite app_length. lia.
  - rewrite app_length. pose proof (flat_map_length_ge encode a encode_nonempty). cbn [length]. lia.
Qed.
