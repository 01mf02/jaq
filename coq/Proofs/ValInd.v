(** Induction over the nesting of values: the components of an array or object lie strictly less deep than it, so a
    property that passes from the components to the whole holds of every value; and fuel above the depth of a value makes
    no difference to a function that recurses over it on fuel. *)
From Coq Require Import List Lia.
From JaqV Require Import Val.Val.
Import ListNotations.

Lemma depth_arr n a : depth (Arr a) < S n -> Forall (fun x => depth x < n) a.
Proof. cbn [depth]. induction a as [|x a IH]; intros H; constructor; cbn [fold_right] in H; [|apply IH]; lia. Qed.

Lemma depth_obj n o : depth (Obj o) < S n -> Forall (fun kv => depth (fst kv) < n /\ depth (snd kv) < n) o.
Proof. cbn [depth]. induction o as [|[k x] o IH]; intros H; constructor; cbn [fold_right fst snd] in *; [|apply IH]; lia. Qed.

Lemma depth_arr_in x a : In x a -> depth x < depth (Arr a).
Proof. revert x. apply Forall_forall, depth_arr. lia. Qed.

Lemma depth_obj_in kv o : In kv o -> depth (fst kv) < depth (Obj o) /\ depth (snd kv) < depth (Obj o).
Proof. revert kv. apply Forall_forall, depth_obj. lia. Qed.

Lemma depth_arr_le a n : (forall x, In x a -> depth x <= n) -> depth (Arr a) <= S n.
Proof.
  intros H. cbn [depth]. apply le_n_S. induction a as [|y a IH]; cbn [fold_right]; [lia|].
  pose proof (H y (or_introl eq_refl)). specialize (IH (fun x Hx => H x (or_intror Hx))). lia.
Qed.

Lemma depth_obj_le o n : (forall kv, In kv o -> depth (fst kv) <= n /\ depth (snd kv) <= n) -> depth (Obj o) <= S n.
Proof.
  intros H. cbn [depth]. apply le_n_S. induction o as [|[k y] o IH]; cbn [fold_right]; [lia|].
  pose proof (H (k, y) (or_introl eq_refl)) as [Hk Hy]. cbn [fst snd] in Hk, Hy. specialize (IH (fun x Hx => H x (or_intror Hx))). lia.
Qed.

Lemma val_depth_ind (P : val -> Prop) : (forall v, (forall x, depth x < depth v -> P x) -> P v) -> forall v, P v.
Proof.
  intros H. assert (G : forall n v, depth v < n -> P v); [|intros v; apply (G (S (depth v))); lia].
  induction n as [|n IH]; intros v Hd; [lia|]. apply H. intros x Hx. apply IH. lia.
Qed.

Lemma val_nest_ind (P : val -> Prop) :
  P Null -> (forall b, P (Bool b)) -> (forall n, P (Num n)) -> (forall s, P (BStr s)) -> (forall s, P (TStr s)) ->
  (forall a, (forall x, In x a -> P x) -> P (Arr a)) ->
  (forall o, (forall kv, In kv o -> P (fst kv) /\ P (snd kv)) -> P (Obj o)) ->
  forall v, P v.
Proof.
  intros HN HB HM HS HT HA HO v. induction v as [v IH] using val_depth_ind. destruct v as [|b|m|s|s|a|o]; auto.
  - apply HA. intros x Hx. apply IH, depth_arr_in, Hx.
  - apply HO. intros kv Hkv. destruct (depth_obj_in kv o Hkv). split; apply IH; assumption.
Qed.

(** for the functions that recurse over values on fuel ([write_f], [encode_f]), which are started with more fuel
    than the value is deep: [P n m v] is, e.g., that both amounts of fuel give the same result *)
Lemma fuel_above_depth (P : nat -> nat -> val -> Prop) :
  (forall n m v, (forall x, depth x < depth v -> P n m x) -> P (S n) (S m) v) ->
  forall n m v, depth v < n -> depth v < m -> P n m v.
Proof.
  intros step n m v. revert n m. induction v as [v IH] using val_depth_ind. intros [|n] [|m] Hn Hm; try lia.
  apply step. intros x Hx. apply IH; lia.
Qed.
