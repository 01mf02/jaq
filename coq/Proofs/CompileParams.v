(** Compiler correctness as in Proofs/CompileDefs.v, with definitions that take variable parameters: `def f($a; $b): body`
    and calls `f(s; t)` whose arguments are evaluated in order (first outermost) and bound on top of the environment of the
    definition. *)
From Coq Require Import ZArith Bool List Lia.
From JaqV Require Import Base.Bytes Base.Stream Val.Num Val.Val Val.Err Val.Arith Core.Syntax Core.Compile Core.Natives Core.Run
  Proofs.MonadLaws Proofs.CompileCommon.
From JaqV Require Proofs.CompileCorrect Proofs.GetpathLaws.
Import ListNotations.

Section CP.
  Variable g : genv.
  Variable d : val -> bytes.
  Variable nr : nat -> bytes -> list narg -> val -> option (str val).
  Notation run := (run d nr).
  Notation explode := (explode d nr).

  Definition nenv := list (cbind * bind).
  Fixpoint lookup (rho : nenv) (x : cbind) : option bind :=
    match rho with [] => None | (y, a) :: r => if cbind_eqb x y then Some a else lookup r x end.

  Definition clo := (bytes * list bytes * pterm * nenv)%type.   (* name, parameters, body, environment at the definition *)
  Fixpoint find_def (f : bytes) (ar : nat) (phi : list clo) : option (list bytes * pterm * nenv * list clo) :=
    match phi with
    | [] => None
    | (f', ps, body, rd) :: r => if bytes_eqb f f' && Nat.eqb ar (length ps) then Some (ps, body, rd, phi) else find_def f ar r
    end.

  (** last parameter first, as the context holds them *)
  Definition pbind (ps : list bytes) (ys : list val) : nenv := rev (combine (map CVar ps) (map BVar ys)).

  (** definitions in front of a term cost no fuel: the compiled term is that of the term after them *)
  Fixpoint strip (t : pterm) : list (bytes * list bytes * pterm) * pterm :=
    match t with
    | PDef [PDefn f ps body] t' => let '(ds, t0) := strip t' in ((f, ps, body) :: ds, t0)
    | _ => ([], t)
    end.
  Definition push_defs (ds : list (bytes * list bytes * pterm)) (rho : nenv) (phi : list clo) : list clo :=
    fold_left (fun ph fb => (fst (fst fb), snd (fst fb), snd fb, rho) :: ph) ds phi.

  Notation fold_go := CompileCorrect.fold_go.

  Fixpoint sem (n : nat) (t : pterm) (rho : nenv) (phi0 : list clo) (lab : nat) (v : val) {struct n} : str val :=
    match n with
    | O => SBot
    | S n =>
        let '(ds, t0) := strip t in
        let phi := push_defs ds rho phi0 in
        let cart := fun l r => sbind (sem n l rho phi lab v) (fun x => smap (fun y => (x, y)) (sem n r rho phi lab v)) in
        match t0 with
        | PId => sone v
        | PNum x => sone (match int_literal x with Some i => vint i | None => Num (from_str x) end)
        | PVar x => match lookup rho (CVar x) with Some (BVar a) => sone a | _ => SUnk end
        | PBreak x => match lookup rho (CLabel x) with Some (BLabel l) => SExn (XBreak l) | _ => SUnk end
        | PLabel x t => slabel (S lab) (sem n t ((CLabel x, BLabel (S lab)) :: rho) phi (S lab) v)
        | PCall f args =>
            match find_def f (length args) phi with
            | Some (ps, body, rd, phis) =>
                sbind (sargs n args rho phi lab v) (fun ys => sem n body (pbind ps ys ++ rd) phis lab v)
            | None => SUnk
            end
        | PNeg t => sbind (sem n t rho phi lab v) (fun x => of_res (vneg x))
        | PArr (Some t) => collect_then (sem n t rho phi lab v) (fun l => sone (Arr l))
        | PTryCatch t (Some c) => stry (sem n t rho phi lab v) (fun e => sem n c rho phi lab (err_val d e))
        | PIte [(i, th)] (Some el) => sbind (sem n i rho phi lab v) (fun x => sem n (if as_bool x then th else el) rho phi lab v)
        | PBinOp l op r =>
            match op with
            | BPipe None => sbind (sem n l rho phi lab v) (fun y => sem n r rho phi lab y)
            | BPipe (Some (PPVar x)) => sbind (sem n l rho phi lab v) (fun y => sem n r ((CVar x, BVar y) :: rho) phi lab v)
            | BComma => sapp (sem n l rho phi lab v) (fun _ => sem n r rho phi lab v)
            | BAlt => match sfilter as_bool (sem n l rho phi lab v) with SNil => sem n r rho phi lab v | s => s end
            | BMath o => sbind (cart l r) (fun xy => of_res_opt (math_run o (fst xy) (snd xy)))
            | BCmp o => smap (fun xy => Bool (cmp_run o (fst xy) (snd xy))) (cart l r)
            | BOr => sbind (sem n l rho phi lab v) (fun x => if Bool.eqb (as_bool x) true then sone (Bool true)
                                                         else smap (fun y => Bool (as_bool y)) (sem n r rho phi lab v))
            | BAnd => sbind (sem n l rho phi lab v) (fun x => if Bool.eqb (as_bool x) false then sone (Bool false)
                                                          else smap (fun y => Bool (as_bool y)) (sem n r rho phi lab v))
            | _ => SUnk
            end
        | PPath t path => sbind (sem n t rho phi lab v) (fun y => sbind (sexplode n path rho phi lab v) (fun ps => path_run ps y))
        | PFold name xs (PPVar x) (init :: upd :: rest) =>
            let xsv := match n with O => SBot | S n' => sem n' xs rho phi lab v end in
            let step := fun y acc => sem n upd ((CVar x, BVar y) :: rho) phi lab acc in
            if bytes_eqb name name_reduce then
              match rest with
              | [] => sbind (sem n init rho phi lab v) (fold_go step (fun _ _ => SNil) sone xsv)
              | _ => SUnk
              end
            else if bytes_eqb name name_foreach then
              match rest with
              | [] => sbind (sem n init rho phi lab v) (fold_go step (fun _ z => sone z) (fun _ => SNil) xsv)
              | [proj] => sbind (sem n init rho phi lab v) (fold_go step (fun y z => sem n proj ((CVar x, BVar y) :: rho) phi lab z) (fun _ => SNil) xsv)
              | _ => SUnk
              end
            else SUnk
        | _ => SUnk
        end
    end

  (** all combinations, first argument outermost *)
  with sargs (n : nat) (args : list pterm) (rho : nenv) (phi : list clo) (lab : nat) (v : val) {struct n} : str (list val) :=
    match n with
    | O => SBot
    | S n =>
        match args with
        | [] => sone []
        | a :: rest => sbind (sem n a rho phi lab v) (fun y => smap (cons y) (sargs n rest rho phi lab v))
        end
    end

  with sexplode (n : nat) (path : list (ppart * bool)) (rho : nenv) (phi : list clo) (lab : nat) (v : val) {struct n}
    : str (list (vpart * bool)) :=
    match n with
    | O => SBot
    | S n =>
        match path with
        | [] => sone []
        | (p, opt) :: rest =>
            let ps :=
              match p with
              | PIndex i => smap VIndex (sem n i rho phi lab v)
              | PRange None None => sone (VRange None None)
              | PRange (Some f) None => smap (fun x => VRange (Some x) None) (sem n f rho phi lab v)
              | PRange None (Some u) => smap (fun x => VRange None (Some x)) (sem n u rho phi lab v)
              | PRange (Some f) (Some u) =>
                  sbind (sem n f rho phi lab v) (fun x => smap (fun y => VRange (Some x) (Some y)) (sem n u rho phi lab v))
              end in
            sbind ps (fun p' => smap (fun r => (p', opt) :: r) (sexplode n rest rho phi lab v))
        end
    end.

  Inductive frag : list cbind -> list (bytes * nat) -> nat -> pterm -> Prop :=
  | f_id b fs n : frag b fs (S n) PId
  | f_num b fs n x : frag b fs (S n) (PNum x)
  | f_var b fs n x : In (CVar x) b -> frag b fs (S n) (PVar x)
  | f_neg b fs n t : frag b fs n t -> frag b fs (S n) (PNeg t)
  | f_arr b fs n t : frag b fs n t -> frag b fs (S n) (PArr (Some t))
  | f_try b fs n t c : frag b fs n t -> frag b fs n c -> frag b fs (S n) (PTryCatch t (Some c))
  | f_ite b fs n i th el : frag b fs n i -> frag b fs n th -> frag b fs n el -> frag b fs (S n) (PIte [(i, th)] (Some el))
  | f_pipe b fs n l r : frag b fs n l -> frag b fs n r -> frag b fs (S n) (PBinOp l (BPipe None) r)
  | f_bind b fs n l x r : frag b fs n l -> frag (CVar x :: b) fs n r -> frag b fs (S (S n)) (PBinOp l (BPipe (Some (PPVar x))) r)
  | f_comma b fs n l r : frag b fs n l -> frag b fs n r -> frag b fs (S n) (PBinOp l BComma r)
  | f_alt b fs n l r : frag b fs n l -> frag b fs n r -> frag b fs (S n) (PBinOp l BAlt r)
  | f_math b fs n l o r : frag b fs n l -> frag b fs n r -> frag b fs (S n) (PBinOp l (BMath o) r)
  | f_cmp b fs n l o r : frag b fs n l -> frag b fs n r -> frag b fs (S n) (PBinOp l (BCmp o) r)
  | f_or b fs n l r : frag b fs n l -> frag b fs n r -> frag b fs (S n) (PBinOp l BOr r)
  | f_and b fs n l r : frag b fs n l -> frag b fs n r -> frag b fs (S n) (PBinOp l BAnd r)
  | f_path b fs n t ps : frag b fs n t -> frag_parts b fs n ps -> frag b fs (S n) (PPath t ps)
  | f_reduce b fs n xs x init upd : frag b fs n xs -> frag b fs (S n) init -> frag (CVar x :: b) fs (S n) upd ->
      frag b fs (S (S n)) (PFold name_reduce xs (PPVar x) [init; upd])
  | f_foreach b fs n xs x init upd : frag b fs n xs -> frag b fs (S n) init -> frag (CVar x :: b) fs (S n) upd ->
      frag b fs (S (S n)) (PFold name_foreach xs (PPVar x) [init; upd])
  | f_foreach3 b fs n xs x init upd proj : frag b fs n xs -> frag b fs (S n) init -> frag (CVar x :: b) fs (S n) upd ->
      frag (CVar x :: b) fs (S n) proj -> frag b fs (S (S n)) (PFold name_foreach xs (PPVar x) [init; upd; proj])
  | f_label b fs n x t : frag (CLabel x :: b) fs n t -> frag b fs (S n) (PLabel x t)
  | f_break b fs n x : In (CLabel x) b -> frag b fs (S n) (PBreak x)
  | f_call b fs n f args : In (f, length args) fs -> frag_args b fs n args -> frag b fs (S n) (PCall f args)
  | f_def b fs n f ps body t : forallb is_var_name ps = true ->
      frag (map CVar (rev ps) ++ b) ((f, length ps) :: fs) n body -> frag b ((f, length ps) :: fs) (S n) t ->
      frag b fs (S (S n)) (PDef [PDefn f ps body] t)
  with frag_args : list cbind -> list (bytes * nat) -> nat -> list pterm -> Prop :=
  | fa_nil b fs n : frag_args b fs n []
  | fa_cons b fs n a r : frag b fs n a -> frag_args b fs n r -> frag_args b fs n (a :: r)
  with frag_parts : list cbind -> list (bytes * nat) -> nat -> list (ppart * bool) -> Prop :=
  | fp_nil b fs n : frag_parts b fs n []
  | fp_index b fs n i o ps : frag b fs n i -> frag_parts b fs n ps -> frag_parts b fs n ((PIndex i, o) :: ps)
  | fp_all b fs n o ps : frag_parts b fs n ps -> frag_parts b fs n ((PRange None None, o) :: ps)
  | fp_from b fs n f o ps : frag b fs n f -> frag_parts b fs n ps -> frag_parts b fs n ((PRange (Some f) None, o) :: ps)
  | fp_upto b fs n u o ps : frag b fs n u -> frag_parts b fs n ps -> frag_parts b fs n ((PRange None (Some u), o) :: ps)
  | fp_both b fs n f u o ps : frag b fs n f -> frag b fs n u -> frag_parts b fs n ps -> frag_parts b fs n ((PRange (Some f) (Some u), o) :: ps).

  Scheme frag_ind2 := Minimality for frag Sort Prop
    with frag_args_ind2 := Minimality for frag_args Sort Prop
    with frag_parts_ind2 := Minimality for frag_parts Sort Prop.
  Combined Scheme frag_mutind from frag_ind2, frag_args_ind2, frag_parts_ind2.

  Definition scoped (b : list cbind) (e : env) : Prop := forall x, In x b -> index_of x (e_vars e) 0 <> None.
  Definition fscoped (fs : list (bytes * nat)) (e : env) : Prop :=
    forall f ar, In (f, ar) fs -> exists fe, find_fun f ar (e_funs e) = Some fe.
  Definition kind_ok (x : cbind) (a : bind) : Prop :=
    match x, a with CVar _, BVar _ | CLabel _, BLabel _ => True | _, _ => False end.
  Definition agrees (e : env) (c : ctx) (rho : nenv) : Prop :=
    map fst rho = e_vars e /\ (exists rest, vars c = map snd rho ++ rest) /\ Forall (fun p => kind_ok (fst p) (snd p)) rho.

  Definition extends (s s' : cst) : Prop :=
    c_errs s' = c_errs s /\ (length (c_defs s) <= length (c_defs s'))%nat
    /\ forall i, (i < length (c_defs s))%nat -> nth_error (c_defs s') i = nth_error (c_defs s) i.
  Definition covers (s s' : cst) (defs : list term) : Prop :=
    forall i, (length (c_defs s) <= i < length (c_defs s'))%nat -> nth_error defs i = nth_error (c_defs s') i.

  Lemma covers_refl s defs : covers s s defs.
  Proof. exact (CompileCommon.covers_refl s defs). Qed.

  Definition entry_info (fe : fentry) : option (nat * list bool) :=
    match f_kind fe with FParent kinds id | FSibling kinds id _ => Some (id, kinds) | FArg => None end.

  (** as in CompileDefs.v; the compiled body runs in a context that holds the values of the parameters on top of the
      closure's environment *)
  Inductive funs_rel (defs : list term) (fuel : nat) : list fentry -> nenv -> list clo -> Prop :=
  | fr_nil rho : funs_rel defs fuel [] rho []
  | fr_cons fe fes rho f ps body rd phi id k :
      f_name fe = f -> f_arity fe = length ps -> entry_info fe = Some (id, repeat true (length ps)) -> f_vars fe = length rd ->
      (exists pushed, rho = pushed ++ rd) ->
      nth_error defs id = Some k ->
      (forall fuel', (fuel' < fuel)%nat -> forall c v ys, length ys = length ps ->
         (exists rest, vars c = map BVar (rev ys) ++ map snd rd ++ rest) ->
         run defs fuel' k c v = sem fuel' body (pbind ps ys ++ rd) ((f, ps, body, rd) :: phi) (labels c) v) ->
      funs_rel defs fuel fes rd phi ->
      funs_rel defs fuel (fe :: fes) rho ((f, ps, body, rd) :: phi).

  Lemma funs_rel_fuel defs fuel fuel' fes : forall rho phi, (fuel' <= fuel)%nat ->
    funs_rel defs fuel fes rho phi -> funs_rel defs fuel' fes rho phi.
  Proof.
    induction fes as [|fe fes IH]; intros rho phi Hle H; inversion H as [|? ? ? ? ? ? ? ? ? ? N A I V P T C R]; subst; [constructor|].
    econstructor; eauto. intros f'' Hf''. apply C. lia.
  Qed.

  Lemma funs_rel_find defs fuel fes : forall rho phi f ar fe,
    funs_rel defs fuel fes rho phi -> find_fun f ar fes = Some fe ->
    exists ps body rd phis id k pushed,
      find_def f ar phi = Some (ps, body, rd, (f, ps, body, rd) :: phis) /\ ar = length ps
      /\ entry_info fe = Some (id, repeat true (length ps)) /\ f_vars fe = length rd
      /\ rho = pushed ++ rd /\ nth_error defs id = Some k
      /\ (forall fuel', (fuel' < fuel)%nat -> forall c v ys, length ys = length ps ->
            (exists rest, vars c = map BVar (rev ys) ++ map snd rd ++ rest) ->
            run defs fuel' k c v = sem fuel' body (pbind ps ys ++ rd) ((f, ps, body, rd) :: phis) (labels c) v).
  Proof.
    induction fes as [|fe0 fes IH]; intros rho phi f ar fe H Hf; [discriminate|].
    inversion H as [|? ? ? f0 ps body rd phi0 id k Nm A I V (pushed & P) T C R]; subst. cbn [find_fun] in Hf. cbn [find_def].
    rewrite A in Hf.
    destruct (bytes_eqb f (f_name fe0) && Nat.eqb ar (length ps)) eqn:E.
    - injection Hf as <-. apply andb_prop in E as [E1 E2]. apply Nat.eqb_eq in E2.
      destruct (bytes_eqb_spec f (f_name fe0)) as [->|]; [|discriminate].
      exists ps, body, rd, phi0, id, k, pushed. repeat split; auto.
    - destruct (IH rd phi0 f ar fe R Hf) as (ps' & body' & rd' & phis & id' & k' & pushed' & F & Ar & I' & V' & P' & T' & C').
      exists ps', body', rd', phis, id', k', (pushed ++ pushed'). rewrite F. repeat split; auto. rewrite P'. rewrite app_assoc. reflexivity.
  Qed.

  Lemma funs_push defs fuel fes rho phi xa : funs_rel defs fuel fes rho phi -> funs_rel defs fuel fes (xa :: rho) phi.
  Proof.
    intros H. destruct H as [rho|fe fes rho f ps body rd phi id k H1 H2 H3 H4 (q & ->) H6 H7 H8]; [constructor|].
    econstructor; eauto. exists (xa :: q). reflexivity.
  Qed.

  Lemma sem_def n f ps body t rho phi lab v :
    sem n (PDef [PDefn f ps body] t) rho phi lab v = sem n t rho ((f, ps, body, rho) :: phi) lab v.
  Proof. destruct n; [reflexivity|]. cbn [sem strip]. destruct (strip t) as [ds t0]. reflexivity. Qed.

  Lemma sargs_length fuel : forall args rho phi lab v, sforall (fun ys => length ys = length args) (sargs fuel args rho phi lab v).
  Proof.
    induction fuel as [|fuel IH]; intros args rho phi lab v; [exact I|]. destruct args as [|a r]; cbn [sargs]; [cbn; auto|].
    apply GetpathLaws.sforall_sbind_all.
    intros y. apply GetpathLaws.sforall_smap. eapply GetpathLaws.sforall_impl; [|apply IH]. cbn. intros ys ->. reflexivity.
  Qed.

  Lemma push_parent_vars f ps id e : forallb is_var_name ps = true ->
    push_parent f ps id e
    = push_fun {| f_name := f; f_arity := length ps; f_kind := FParent (repeat true (length ps)) id; f_vars := total e |}
        {| e_vars := map CVar (rev ps) ++ e_vars e; e_funs := e_funs e |}
    /\ map is_var_name ps = repeat true (length ps).
  Proof.
    intros H. assert (K : map is_var_name ps = repeat true (length ps)).
    { induction ps as [|a ps IH]; [reflexivity|]. cbn [forallb] in H. apply andb_prop in H as [H1 H2]. cbn [map length repeat]. rewrite H1, (IH H2). reflexivity. }
    split; [|exact K]. unfold push_parent. rewrite K. f_equal.
    assert (F : forall e0, fold_left (fun e1 a => if is_var_name a then push_var (CVar a) e1 else push_arg a e1) ps e0
                          = {| e_vars := map CVar (rev ps) ++ e_vars e0; e_funs := e_funs e0 |}).
    { clear K. induction ps as [|a ps IH]; intros e0; [destruct e0; reflexivity|]. cbn [forallb] in H. apply andb_prop in H as [H1 H2].
      cbn [fold_left]. rewrite H1. rewrite (IH H2). unfold push_var. cbn [e_vars e_funs rev]. rewrite map_app, <- app_assoc. reflexivity. }
    apply F.
  Qed.

  Definition params_sim : sim := pos_sim sem sexplode funs_rel.
  Lemma params_sim_ok : sim_ok d nr params_sim.
  Proof.
    apply pos_sim_ok; try reflexivity.
    - split; reflexivity.
    - intros defs fuel fes rho phi. apply funs_rel_fuel. lia.
    - exact funs_push.
  Qed.

  Notation runs_as := (runs_as d nr params_sim).
  Notation compiles := (compiles g d nr params_sim).
  Notation compiles_parts := (compiles_parts g d nr params_sim).

  Definition binds_as (e : env) (args : list pterm) (cargs : list term) (defs : list term) : Prop :=
    forall fuel c rho phi v acc, agrees e c rho -> funs_rel defs fuel (e_funs e) rho phi ->
      bind_vars d nr defs fuel (combine (repeat true (length cargs)) cargs) acc c v
      = smap (fun ys => push_vals ys acc) (sargs fuel args rho phi (labels c) v).
  Notation compiles_args := (compiles_args g params_sim binds_as).

  Lemma call_runs e f args cargs fe k defs : find_fun f (length args) (e_funs e) = Some fe -> length cargs = length args ->
    call_of e fe cargs k -> binds_as e args cargs defs -> runs_as e k (PCall f args) defs.
  Proof.
    intros Hfe LA LK RA [|fuel] c [rho phi] v [Hag Hfr]; [reflexivity|]. cbn [fst snd] in Hag, Hfr. cbn [params_sim pos_sim Sem fst snd].
    destruct (funs_rel_find defs (S fuel) _ rho phi f (length args) fe Hfr Hfe)
      as (ps & body & rd & phis & id & kb & pushed & F & Ar & I & V & P & T & C).
    destruct (call_of_def _ _ _ _ _ _ I LK) as (typ & ->).
    unfold binds. rewrite run_calldef. cbn [sem strip push_defs fold_left]. rewrite T, F, <- Ar, <- LA.
    rewrite (RA fuel c rho phi v (skip_vars (total e - f_vars fe) c) Hag (funs_rel_fuel defs (S fuel) fuel _ rho phi ltac:(lia) Hfr)).
    rewrite sbind_smap. apply (sbind_ext_on (fun ys => length ys = length args)); [apply sargs_length|].
    intros ys Hys. change (labels c) with (labels (skip_vars (total e - f_vars fe) c)). rewrite <- (push_vals_labels ys (skip_vars (total e - f_vars fe) c)).
    apply (C fuel ltac:(lia)); [congruence|].
    destruct Hag as (Hmm & (rest & Hv) & _). exists rest. rewrite push_vals_vars. f_equal. rewrite V.
    apply (skip_pushed e c pushed rd (map snd pushed)); [congruence|apply map_length|rewrite Hv, P, map_app, <- app_assoc; reflexivity].
  Qed.

  (** as in CompileDefs.v, with the values of the parameters on top of the environment of the definition *)
  Lemma def_runs f ps body t e id kb k trb defs : forallb is_var_name ps = true -> nth_error defs id = Some kb ->
    runs_as (push_parent f ps id e) kb body defs ->
    runs_as (push_sibling f (map is_var_name ps) id trb e) k t defs ->
    runs_as e k (PDef [PDefn f ps body] t) defs.
  Proof.
    intros Hps Hdid R2 R4 fuel c [rho phi] v [Hag Hfr]. cbn [fst snd] in Hag, Hfr. cbn [params_sim pos_sim Sem fst snd]. rewrite sem_def.
    destruct (push_parent_vars f ps id e Hps) as [PP KK]. pose proof Hag as (Hmm & Hctx & Hk).
    assert (FV : total e = length rho) by (unfold total; rewrite <- Hmm, map_length; reflexivity).
    assert (CL : forall fuel', (fuel' <= fuel)%nat -> forall c' v' ys, length ys = length ps ->
                   (exists rest, vars c' = map BVar (rev ys) ++ map snd rho ++ rest) ->
                   run defs fuel' kb c' v' = sem fuel' body (pbind ps ys ++ rho) ((f, ps, body, rho) :: phi) (labels c') v').
    { refine (below_ind _ fuel _). intros fuel' Hle IHf c' v' ys Hys (rest & Hc').
      apply (R2 fuel' c' (pbind ps ys ++ rho, (f, ps, body, rho) :: phi) v'). rewrite PP. split.
      - repeat split.
        + cbn [push_fun e_vars fst]. rewrite map_app, Hmm. f_equal. apply bind_params_fst. exact Hys.
        + exists rest. cbn [fst]. rewrite map_app, <- app_assoc, Hc'. f_equal. symmetry. apply (bind_params_snd BVar). exact Hys.
        + apply Forall_app. split; [|exact Hk]. apply (bind_params_all BVar). intros x y. exact I.
      - apply fr_cons with (id := id) (k := kb);
          [reflexivity|reflexivity|reflexivity|exact FV|exists (pbind ps ys); reflexivity|exact Hdid| |apply (funs_rel_fuel defs fuel fuel'); assumption].
        intros fuel'' Hlt. exact (IHf fuel'' Hlt). }
    apply (R4 fuel c (rho, (f, ps, body, rho) :: phi) v). split; [exact Hag|].
    apply fr_cons with (id := id) (k := kb);
      [reflexivity|cbn [f_arity]; apply map_length|unfold entry_info; cbn [f_kind]; rewrite KK; reflexivity|exact FV|exists []; reflexivity|exact Hdid| |exact Hfr].
    intros fuel' Hf'. apply CL. lia.
  Qed.

  Lemma compile_params_mut :
    (forall b fs n t, frag b fs n t -> compiles b (defined fs) n t)
    /\ (forall b fs n args, frag_args b fs n args -> compiles_args b (defined fs) n args)
    /\ (forall b fs n ps, frag_parts b fs n ps -> compiles_parts b (defined fs) n ps).
  Proof.
    apply frag_mutind; intros.
    - apply (compiles_id params_sim_ok).
    - apply (compiles_num params_sim_ok).
    - apply (compiles_var params_sim_ok); assumption.
    - apply (compiles_neg params_sim_ok); assumption.
    - apply (compiles_arr params_sim_ok); assumption.
    - apply (compiles_try params_sim_ok); assumption.
    - apply (compiles_ite params_sim_ok); assumption.
    - apply (compiles_pipe params_sim_ok); assumption.
    - apply (compiles_bind params_sim_ok); assumption.
    - apply (compiles_comma params_sim_ok); assumption.
    - apply (compiles_alt params_sim_ok); assumption.
    - apply (compiles_binop params_sim_ok); [exact I|assumption..].
    - apply (compiles_binop params_sim_ok); [exact I|assumption..].
    - apply (compiles_binop params_sim_ok); [exact I|assumption..].
    - apply (compiles_binop params_sim_ok); [exact I|assumption..].
    - apply (compiles_path params_sim_ok); assumption.
    - apply (compiles_reduce params_sim_ok); assumption.
    - apply (compiles_foreach params_sim_ok); assumption.
    - apply (compiles_foreach3 params_sim_ok); assumption.
    - apply (compiles_label params_sim_ok); assumption.
    - apply (compiles_break params_sim_ok); assumption.
    - (* call *) apply compiles_call with (binds_as := binds_as); [intros e Hfs; exact (Hfs f _ H)|assumption|].
      intros e cargs fe k defs. apply call_runs.
    - (* def *) rename H into Hps.
      apply compiles_def with (b1 := map CVar (rev ps) ++ b) (Q1 := defined ((f, length ps) :: fs)) (Q3 := defined ((f, length ps) :: fs));
        try assumption; try reflexivity.
      + intros e id Hsc Hfs. destruct (push_parent_vars f ps id e Hps) as [-> _].
        split; [apply (in_scope_app _ b e); [reflexivity|exact Hsc]|apply defined_push; [reflexivity..|exact Hfs]].
      + intros e id trb Hfs. apply defined_push; [reflexivity|apply map_length|exact Hfs].
      + intros e id kb k trb defs. apply def_runs. exact Hps.
    - (* no arguments *) apply (compiles_args_nil params_sim_ok). intros e defs fuel c rho phi v acc Hag Hfr. destruct fuel; reflexivity.
    - (* an argument *) apply (compiles_args_cons params_sim_ok); [|assumption..].
      intros e k1 cr defs R1 R2 fuel c rho phi v acc Hag Hfr. destruct fuel as [|fuel]; [reflexivity|].
      cbn [length repeat combine]. rewrite bind_vars_cons. cbn [sargs].
      pose proof (funs_rel_fuel defs (S fuel) fuel _ rho phi ltac:(lia) Hfr) as Hfr'.
      rewrite (R1 fuel c (rho, phi) v (conj Hag Hfr')), smap_over_sbind. apply sbind_ext. intros y.
      rewrite (R2 fuel c rho phi v (cons_var y acc) Hag Hfr'), smap_smap. reflexivity.
    - apply (compiles_parts_nil params_sim_ok).
    - apply (compiles_parts_cons params_sim_ok); [|assumption]; cbn; auto.
    - apply (compiles_parts_cons params_sim_ok); [|assumption]; cbn; auto.
    - apply (compiles_parts_cons params_sim_ok); [|assumption]; cbn; auto.
    - apply (compiles_parts_cons params_sim_ok); [|assumption]; cbn; auto.
    - apply (compiles_parts_cons params_sim_ok); [|assumption]; cbn; auto.
  Qed.

  Theorem compile_params b fs n t : frag b fs n t -> forall m e s tr, (n <= m)%nat -> scoped b e -> fscoped fs e ->
    exists k trr s', c_term g m e s t tr = ((k, trr), s') /\ extends s s'
      /\ forall defs, covers s s' defs -> forall fuel c rho phi v, agrees e c rho -> funs_rel defs fuel (e_funs e) rho phi ->
          run defs fuel k c v = sem fuel t rho phi (labels c) v.
  Proof.
    intros H m e s tr Hm Hsc Hfs. destruct (proj1 compile_params_mut b fs n t H m e s tr Hm Hsc Hfs) as (k & trr & s' & E & X & R).
    exists k, trr, s'. split; [exact E|]. split; [exact X|]. intros defs Hc fuel c rho phi v Hag Hfr. exact (R defs Hc fuel c (rho, phi) v (conj Hag Hfr)).
  Qed.

  Corollary compile_params_closed n t : frag [] [] n t ->
    exists k trr s', c_term g n empty_env empty_cst t [] = ((k, trr), s') /\ c_errs s' = 0%nat
      /\ forall fuel v, run (c_defs s') fuel k {| vars := []; labels := 0 |} v = sem fuel t [] [] 0 v.
  Proof.
    intros H. destruct (compile_params [] [] n t H n empty_env empty_cst [] (le_n _)) as (k & trr & s' & E & X & R).
    - intros x [].
    - intros f ar [].
    - exists k, trr, s'. split; [exact E|]. split; [exact (proj1 X)|]. intros fuel v.
      apply (R (c_defs s') ltac:(intros i Hi; reflexivity) fuel {| vars := []; labels := 0 |} [] [] v).
      + repeat split; [exists []; reflexivity|constructor].
      + constructor.
  Qed.
End CP.

(** 1 as $x | def f($a; $b): if . then [($a, $b, $x)] else (1 | f($b; $a)) end; f(2; 3) *)
Definition params_ex : pterm :=
  let vx := of_ascii [36; 120]%Z in let va := of_ascii [36; 97]%Z in let vb := of_ascii [36; 98]%Z in let f := of_ascii [102]%Z in
  let num c := PNum (of_ascii [c]%Z) in
  PBinOp (num 49%Z) (BPipe (Some (PPVar vx)))
    (PDef [PDefn f [va; vb]
             (PIte [(PId, PArr (Some (PBinOp (PVar va) BComma (PBinOp (PVar vb) BComma (PVar vx)))))]
                   (Some (PBinOp (num 49%Z) (BPipe None) (PCall f [PVar vb; PVar va]))))]
       (PCall f [num 50%Z; num 51%Z])).
Example frag_params_ex : frag [] [] 12 params_ex.
Proof.
  unfold params_ex. cbv zeta. apply f_bind; [constructor|]. apply f_def; [reflexivity| |].
  - apply f_ite; [constructor| |].
    + apply f_arr. apply f_comma; [apply f_var; cbn; auto|]. apply f_comma; apply f_var; cbn; auto.
    + apply f_pipe; [constructor|]. apply f_call; [left; reflexivity|].
      apply fa_cons; [apply f_var; cbn; auto|apply fa_cons; [apply f_var; cbn; auto|apply fa_nil]].
  - apply f_call; [left; reflexivity|]. apply fa_cons; [constructor|apply fa_cons; [constructor|apply fa_nil]].
Qed.
Example sem_params_ex d : sem d 12 params_ex [] [] 0 Null = sone (Arr [vint 3; vint 2; vint 1]).
Proof. vm_compute. reflexivity. Qed.
