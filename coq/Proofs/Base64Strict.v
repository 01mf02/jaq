(** C13: the strict base64 decoder of the model accepts nothing but what the encoder writes: an accepted text is the
    encoding of its result, so malformed, truncated or non-canonical input is rejected and never silently shortened. *)
From Coq Require Import ZArith Bool List Lia.
From JaqV Require Import Base.Bytes Std.Codec Proofs.DigitLaws Proofs.CodecLaws.
Import ListNotations.
Local Open Scope Z_scope.

Lemma b64_char_val_all :
  forallb (fun z => match b64_val (zb z) with
                    | Some k => (0 <=? k) && (k <? 64) && byte_eqb (b64_char k) (zb z)
                    | None => true
                    end) (map Z.of_nat (seq 0 256)) = true.
Proof. vm_compute. reflexivity. Qed.

Lemma b64_char_val c k : b64_val c = Some k -> 0 <= k < 64 /\ b64_char k = c.
Proof.
  intros H. pose proof (forallb_below _ 256 b64_char_val_all (bz c) (bz_range c)) as A. cbv beta in A.
  rewrite zb_bz, H in A. apply andb_true_iff in A. destruct A as [A1 A3]. apply andb_true_iff in A1. destruct A1 as [A1 A2].
  apply Z.leb_le in A1. apply Z.ltb_lt in A2. split; [lia|]. destruct (byte_eqb_spec (b64_char k) c); [assumption|discriminate].
Qed.

Lemma encode3 a b c r : b64_encode (a :: b :: c :: r) =
  let n := bz a * 65536 + bz b * 256 + bz c in
  b64_char (n / 262144) :: b64_char ((n / 4096) mod 64) :: b64_char ((n / 64) mod 64) :: b64_char (n mod 64) :: b64_encode r.
Proof. reflexivity. Qed.

Theorem base64_decode_is_strict : forall fuel s r, b64_decode fuel s = Some r -> b64_encode r = s.
Proof.
  induction fuel as [|fuel IH]; intros s r H; [discriminate|].
  destruct s as [|a [|b [|c [|d t]]]]; cbn [b64_decode] in H; try discriminate.
  { injection H as <-. reflexivity. }
  destruct (b64_val a) as [x|] eqn:Ea; [|destruct t; discriminate].
  destruct (b64_val b) as [y|] eqn:Eb; [|destruct t; discriminate].
  destruct (b64_char_val a x Ea) as [Hx <-]. destruct (b64_char_val b y Eb) as [Hy <-].
  destruct t as [|t0 t].
  - destruct (byte_eqb_spec c pad) as [->|Nc]; cbn [andb] in H.
    + destruct (byte_eqb_spec d pad) as [->|Nd].
      * destruct (Z.eqb_spec (y mod 16) 0) as [Ey|Ey]; [|discriminate]. injection H as <-.
        cbn [b64_encode]. rewrite bz_zb by (Z.div_mod_to_equations; lia). cbv zeta. repeat f_equal; Z.div_mod_to_equations; lia.
      * change (b64_val pad) with (@None Z) in H. discriminate.
    + destruct (b64_val c) as [z|] eqn:Ec; [|discriminate]. destruct (b64_char_val c z Ec) as [Hz <-].
      destruct (byte_eqb_spec d pad) as [->|Nd].
      * destruct (Z.eqb_spec (z mod 4) 0) as [Ez|Ez]; [|discriminate]. injection H as <-.
        cbn [b64_encode]. rewrite !bz_zb by (Z.div_mod_to_equations; lia). cbv zeta. repeat f_equal; Z.div_mod_to_equations; lia.
      * destruct (b64_val d) as [w|] eqn:Ed; [|discriminate]. destruct (b64_char_val d w Ed) as [Hw <-].
        injection H as <-. destruct (quad x y z w Hx Hy Hz Hw) as (Ba & Bb & Bc & Q1 & Q2 & Q3 & Q4).
        rewrite encode3. rewrite !bz_zb by assumption. cbv zeta. rewrite Q1, Q2, Q3, Q4. reflexivity.
  - destruct (b64_val c) as [z|] eqn:Ec; [|discriminate]. destruct (b64_val d) as [w|] eqn:Ed; [|discriminate].
    destruct (b64_char_val c z Ec) as [Hz <-]. destruct (b64_char_val d w Ed) as [Hw <-].
    destruct (b64_decode fuel (t0 :: t)) as [u|] eqn:Eu; [|discriminate]. injection H as <-.
    destruct (quad x y z w Hx Hy Hz Hw) as (Ba & Bb & Bc & Q1 & Q2 & Q3 & Q4).
    rewrite encode3. rewrite !bz_zb by assumption. cbv zeta. rewrite Q1, Q2, Q3, Q4. rewrite (IH _ _ Eu). reflexivity.
Qed.

(** hence no two accepted texts decode to the same bytes, and a truncated or altered encoding is never accepted as something else's encoding *)
Corollary base64_decode_injective fuel fuel' s s' r : b64_decode fuel s = Some r -> b64_decode fuel' s' = Some r -> s = s'.
Proof. intros H H'. rewrite <- (base64_decode_is_strict _ _ _ H), <- (base64_decode_is_strict _ _ _ H'). reflexivity. Qed.
