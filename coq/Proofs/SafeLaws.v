(** The guards that stand between boundary values and a crash: machine integers never leave their range (the checked
    operations fall back to big integers), indices and slices stay inside the sequence, and string positions fall on
    character boundaries inside the string. *)
From Coq Require Import ZArith Bool List Lia Sorting.Sorted.
From JaqV Require Import Base.Bytes Val.Num Val.Utf8 Val.Index Proofs.NumExact.
Import ListNotations.
Local Open Scope Z_scope.

Definition int_ok (x : num) : Prop := match x with Int i => in_isize i = true | _ => True end.

Lemma int_or_big_ok z : int_ok (int_or_big z).
Proof. unfold int_or_big. destruct (in_isize z) eqn:E; cbn; auto. Qed.

Lemma add_ok x y : int_ok (add x y).
Proof. destruct x, y; cbn; auto using int_or_big_ok. Qed.
Lemma sub_ok x y : int_ok (sub x y).
Proof. destruct x, y; cbn; auto using int_or_big_ok. Qed.
Lemma mul_ok x y : int_ok (mul x y).
Proof. destruct x, y; cbn; auto using int_or_big_ok. Qed.
Lemma neg_ok x : int_ok (neg x).
Proof. destruct x as [a|a|b|s]; cbn; auto using int_or_big_ok. destruct s as [|c r]; [exact I|]. destruct (bz c =? 45); exact I. Qed.

Lemma rem_ok x y : int_ok x -> int_ok y -> int_ok (rem x y).
Proof.
  destruct x as [a|a|b|s], y as [c|c|d|t]; cbn; auto. intros Ha _. rewrite in_isize_spec in *.
  destruct (Z.eq_dec c 0) as [->|Nz]; [rewrite Z.rem_0_r_ext by reflexivity; exact Ha|].
  (* the remainder has the sign of the dividend and at most its magnitude *)
  assert (Z.abs (Z.rem a c) <= Z.abs a) by (rewrite <- Z.rem_abs by exact Nz; apply Z.rem_le; lia).
  pose proof (Z.rem_nonneg a c Nz). pose proof (Z.rem_nonpos a c Nz). lia.
Qed.

Lemma length_num_ok x n : length_num x = Some n -> int_ok n.
Proof. destruct x; cbn; intros H; try discriminate; injection H as <-; cbn; auto using int_or_big_ok. Qed.

Lemma chunks_f_partition fuel : forall s, (length s <= fuel)%nat -> concat (map snd (chunks_f fuel s)) = s.
Proof.
  induction fuel as [|fuel IH]; intros s H.
  - destruct s; [reflexivity|cbn in H; lia].
  - cbn [chunks_f]. destruct s as [|b r]; [reflexivity|]. destruct (decode1 (b :: r)) as [c n].
    cbn [map snd concat]. rewrite IH.
    + apply firstn_skipn.
    + rewrite skipn_length. cbn [length] in *. lia.
Qed.

Lemma chunks_partition s : concat (map snd (chunks s)) = s.
Proof. apply chunks_f_partition. lia. Qed.

Lemma chunks_f_nonempty fuel : forall s, Forall (fun ch => snd ch <> []) (chunks_f fuel s).
Proof.
  induction fuel as [|fuel IH]; intros s; [constructor|]. cbn [chunks_f]. destruct s as [|b r]; [constructor|].
  destruct (decode1 (b :: r)) as [c n]. constructor; [|apply IH].
  cbn [snd]. destruct (Nat.max n 1) eqn:E; [lia|]. cbn. discriminate.
Qed.

Definition chunk_bytes (cs : list (option Z * bytes)) : Z := Z.of_nat (length (concat (map snd cs))).

(** [char_starts] walks the chunks with a local [fix], which no statement can name.  It is written out here, convertible with
    the model's, so that lemmas can speak of it from any offset. *)
Fixpoint starts_go (cs : list (option Z * bytes)) (off : Z) : list Z :=
  match cs with
  | [] => []
  | (_, ch) :: r => off :: starts_go r (off + Z.of_nat (length ch))
  end.

Lemma char_starts_eq b : char_starts b = starts_go (chunks b) 0.
Proof. reflexivity. Qed.

(** the starts of non-empty chunks increase strictly and stay below the total length *)
Lemma starts_go_sorted cs : forall off, Forall (fun ch => snd ch <> []) cs ->
  StronglySorted Z.lt (starts_go cs off) /\ Forall (fun z => off <= z < off + chunk_bytes cs) (starts_go cs off).
Proof.
  induction cs as [|[c ch] cs IH]; intros off H; [split; constructor|]. inversion H as [|? ? Hne Hr]; subst. cbn [snd] in Hne.
  destruct (IH (off + Z.of_nat (length ch)) Hr) as [S R].
  assert (0 < Z.of_nat (length ch)) by (destruct ch; [congruence|cbn [length]; lia]).
  assert (T : chunk_bytes ((c, ch) :: cs) = Z.of_nat (length ch) + chunk_bytes cs) by (unfold chunk_bytes; cbn [map snd concat]; rewrite app_length; lia).
  assert (0 <= chunk_bytes cs) by apply Nat2Z.is_nonneg.
  cbn [starts_go]. rewrite T. split; constructor; try assumption; try lia.
  - eapply Forall_impl; [|exact R]. cbn beta. lia.
  - eapply Forall_impl; [|exact R]. cbn beta. lia.
Qed.

(** every character position is a byte offset inside the string *)
Lemma char_starts_range b : Forall (fun z => 0 <= z < Z.of_nat (length b)) (char_starts b).
Proof.
  rewrite char_starts_eq. pose proof (proj2 (starts_go_sorted (chunks b) 0 (chunks_f_nonempty _ _))) as H.
  unfold chunk_bytes in H. rewrite chunks_partition in H. exact H.
Qed.

(** a position is a boundary: the start of a chunk (character or invalid sequence) or the end of the string *)
Definition boundary (b : bytes) (z : Z) : Prop := z = Z.of_nat (length b) \/ In z (char_starts b).

Lemma zero_boundary b : boundary b 0.
Proof.
  unfold boundary. destruct b as [|x r]; [left; reflexivity|]. right.
  unfold char_starts, chunks. cbn [length chunks_f]. destruct (decode1 (x :: r)) as [c n]. left. reflexivity.
Qed.

Lemma nth_or_boundary b n d : boundary b d -> boundary b (nth_or (char_starts b) n d).
Proof.
  intros Hd. unfold nth_or. destruct (n <? 0); [exact Hd|].
  destruct (nth_in_or_default (Z.to_nat n) (char_starts b) d) as [H|H]; [right; exact H|rewrite H; exact Hd].
Qed.

(** the byte offset computed for a character position is a boundary inside the string *)
Theorem byte_index_boundary b p : boundary b (byte_index b p) /\ 0 <= byte_index b p <= Z.of_nat (length b).
Proof.
  assert (B : boundary b (byte_index b p)).
  { unfold byte_index. destruct p as [pos c]. destruct pos.
    - apply nth_or_boundary. left. reflexivity.
    - destruct ((1 <=? c) && (c <=? Z.of_nat (length (char_starts b)))); [apply nth_or_boundary|]; apply zero_boundary. }
  split; [exact B|]. destruct B as [->|H]; [lia|].
  pose proof (char_starts_range b) as R. rewrite Forall_forall in R. specialize (R _ H). lia.
Qed.

Theorem skip_take_chars_inside r b :
  let '(s, t) := skip_take_chars r b in 0 <= s /\ 0 <= t /\ s <= Z.of_nat (length b) /\ (t = 0 \/ s + t <= Z.of_nat (length b)).
Proof.
  unfold skip_take_chars. destruct r as [f u]. cbn [fst snd].
  assert (F : 0 <= match f with None => 0 | Some p => byte_index b p end <= Z.of_nat (length b))
    by (destruct f; [apply byte_index_boundary|lia]).
  assert (U : 0 <= match u with None => Z.of_nat (length b) | Some p => byte_index b p end <= Z.of_nat (length b))
    by (destruct u; [apply byte_index_boundary|lia]).
  lia.
Qed.

Theorem abs_index_inside p len i : abs_index p len = Some i -> 0 <= len -> 0 <= snd p -> 0 <= i < len.
Proof.
  unfold abs_index, wrap. destruct p as [pos c]. cbn [snd]. intros H Hl Hc.
  destruct pos.
  - destruct (c <? len) eqn:E; [|discriminate]. injection H as <-. apply Z.ltb_lt in E. lia.
  - destruct (c <=? len) eqn:E1; [|discriminate]. destruct (len - c <? len) eqn:E; [|discriminate]. injection H as <-.
    apply Z.leb_le in E1. apply Z.ltb_lt in E. lia.
Qed.
