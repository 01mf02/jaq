(** Reduction rules of updates that need an argument: folding over bindings, composition of exploded paths, failure on
    value-constructing terms. *)
From Coq Require Import List FunctionalExtensionality.
From JaqV Require Import Base.Stream Val.Val Val.Err Core.Syntax Core.Run Proofs.MonadLaws.
Import ListNotations.

Lemma reduce_over_bindings : forall A (xs : list A) acc (g : A -> val -> str val),
  sreduce (of_list xs) acc g = fold_left (fun s x => sbind s (g x)) xs (sone acc).
Proof.
  intros A xs. assert (H : forall (s : str val) g, fold_left (fun s x => sbind s (g x)) xs s = sbind s (fun a => sreduce (of_list xs) a g)).
  { induction xs as [|x xs IH]; intros s g; cbn [fold_left of_list sreduce].
    - symmetry. apply sbind_sone_r.
    - rewrite IH. rewrite sbind_assoc. reflexivity. }
  intros acc g. rewrite H. rewrite sbind_sone_l. reflexivity.
Qed.

Lemma path_update_composes : forall p1 p2 v f, p1 <> [] -> p2 <> [] ->
  path_update (p1 ++ p2) v f = path_update p1 v (fun x => path_update p2 x f).
Proof.
  induction p1 as [|[p o] p1 IH]; intros p2 v f H1 H2; [congruence|]. destruct p1 as [|q p1].
  - cbn [app path_update]. destruct p2 as [|q2 p2]; [congruence|]. reflexivity.
  - change (((p, o) :: q :: p1) ++ p2) with ((p, o) :: (q :: p1) ++ p2). cbn [path_update].
    destruct ((q :: p1) ++ p2) as [|x y] eqn:E; [discriminate|]. rewrite <- E. f_equal.
    apply functional_extensionality. intros x0. apply IH; [discriminate|exact H2].
Qed.

Lemma update_of_constructed_value_fails : forall d nr defs n c v f t,
  (exists x, t = KInt x) \/ (exists x, t = KNum x) \/ (exists x, t = KStr x) \/ (exists x, t = KArr x) \/ t = KObjEmpty
  \/ (exists k x, t = KObjSingle k x) \/ (exists x, t = KNeg x) \/ (exists l o r, t = KMath l o r) \/ (exists l o r, t = KCmp l o r)
  \/ (exists l r, t = KLogic l true r) \/ (exists l r, t = KLogic l false r) \/ t = KToString ->
  update d nr defs (S n) t c v f = serr (EPathExpr v).
Proof.
  intros d nr defs n c v f t H. repeat (destruct H as [H|H]); try (destruct H as (? & H)); try (destruct H as (? & H)); try (destruct H as (? & H)); subst; reflexivity.
Qed.

